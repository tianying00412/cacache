(* C02 — what is written under a key or address is exactly what is read back.
   For every key, chunk list (every chunking: empty, single-byte, decreasing chunks are just lists), algorithm,
   declared size in {none, correct}, flavour, and every tree satisfying the cache shape invariant.  [hash] is any
   function with digests of at least two bytes.  [wf_rec] = the codec handles the written record faithfully
   (C11). *)
From CC Require Import Bytes Json Sri Record Prog Api IndexP WriteP CommitP MetaP HistP HashExtP.

Section C02.
Variable hash : algo -> bytes -> bytes.
Hypothesis HL : HashLen hash.

Theorem C02_streamed_keyed f fl key o cs now :
  CacheInv f -> o_sri o = None -> size_ok o (lenN (List.concat cs)) = true ->
  let data := List.concat cs in let a := algo_of o in
  wf_rec hash (smeta_of key (commit_opts o (sri_of hash a data) (lenN data)) now) ->
  let f' := snd (run (stream_write hash fl (Some key) o cs now) f) in
  fst (run (stream_write hash fl (Some key) o cs now) f) = Ok (sri_of hash a data) /\
  CacheInv f' /\
  run (read hash key) f' = (Ok data, f') /\
  run (read_hash hash (sri_of hash a data)) f' = (Ok data, f') /\
  (forall k, k <> key -> abs_idx hash f' k = abs_idx hash f k) /\
  exists m, run (find hash key) f' = (Ok (Some m), f') /\ m_key m = key /\ m_sri m = sri_of hash a data /\
            m_size m = match o_size o with Some s => s | None => lenN data end /\
            m_time m = match o_time o with Some t => t | None => now end /\
            m_metadata m = match o_meta o with Some j => j | None => JNull end /\ m_raw m = o_raw o.
Proof. exact (stream_write_keyed_roundtrip hash HL f fl key o cs now). Qed.

Theorem C02_streamed_by_hash f fl o cs now :
  CacheInv f -> o_sri o = None -> size_ok o (lenN (List.concat cs)) = true ->
  let data := List.concat cs in let a := algo_of o in
  let f' := snd (run (stream_write hash fl None o cs now) f) in
  fst (run (stream_write hash fl None o cs now) f) = Ok (sri_of hash a data) /\
  CacheInv f' /\
  run (read_hash hash (sri_of hash a data)) f' = (Ok data, f') /\
  (forall k, abs_idx hash f' k = abs_idx hash f k).
Proof. exact (stream_write_by_hash_roundtrip hash HL f fl o cs now). Qed.

(* one shot: write / write_sync *)
Theorem C02_write f fl a key data now :
  CacheInv f ->
  wf_rec hash (smeta_of key (commit_opts (write_opts fl a data) (sri_of hash a data) (lenN data)) now) ->
  let f' := snd (run (write hash fl a key data now) f) in
  fst (run (write hash fl a key data now) f) = Ok (sri_of hash a data) /\
  CacheInv f' /\
  run (read hash key) f' = (Ok data, f') /\
  run (read_hash hash (sri_of hash a data)) f' = (Ok data, f') /\
  (forall k, k <> key -> abs_idx hash f' k = abs_idx hash f k) /\
  exists m, run (find hash key) f' = (Ok (Some m), f') /\ m_key m = key /\ m_sri m = sri_of hash a data /\
            m_size m = lenN data /\ m_time m = now /\ m_metadata m = JNull /\ m_raw m = None.
Proof. exact (write_roundtrip hash HL f fl a key data now). Qed.

(* one shot by address: write_hash / write_hash_sync *)
Theorem C02_write_hash f fl a data :
  CacheInv f ->
  let f' := snd (run (write_hash hash fl a data) f) in
  fst (run (write_hash hash fl a data) f) = Ok (sri_of hash a data) /\
  CacheInv f' /\
  run (read_hash hash (sri_of hash a data)) f' = (Ok data, f') /\
  (forall k, abs_idx hash f' k = abs_idx hash f k).
Proof. exact (write_hash_roundtrip hash HL f fl a data). Qed.

(* the round trip with the codec hypothesis discharged (C11): decidable conditions on the caller's arguments only *)
Theorem C02_streamed_keyed_closed f fl key o cs now :
  CacheInv f -> o_sri o = None -> size_ok o (lenN (List.concat cs)) = true ->
  let data := List.concat cs in let a := algo_of o in
  opts_ok key (commit_opts o (sri_of hash a data) (lenN data)) now = true ->
  let f' := snd (run (stream_write hash fl (Some key) o cs now) f) in
  fst (run (stream_write hash fl (Some key) o cs now) f) = Ok (sri_of hash a data) /\
  CacheInv f' /\
  run (read hash key) f' = (Ok data, f') /\
  run (read_hash hash (sri_of hash a data)) f' = (Ok data, f') /\
  (forall k, k <> key -> abs_idx hash f' k = abs_idx hash f k).
Proof.
  intros Hi Hs Hz data a Hok f'.
  destruct (stream_write_keyed_roundtrip hash HL f fl key o cs now Hi Hs Hz (opts_ok_wf_rec hash key _ now Hok)) as [H1 [H2 [H3 [H4 [H5 _]]]]].
  auto.
Qed.

Theorem C02_write_closed f fl a key data now :
  CacheInv f ->
  opts_ok key (commit_opts (write_opts fl a data) (sri_of hash a data) (lenN data)) now = true ->
  let f' := snd (run (write hash fl a key data now) f) in
  fst (run (write hash fl a key data now) f) = Ok (sri_of hash a data) /\
  CacheInv f' /\
  run (read hash key) f' = (Ok data, f') /\
  run (read_hash hash (sri_of hash a data)) f' = (Ok data, f').
Proof.
  intros Hi Hok f'. destruct (write_roundtrip hash HL f fl a key data now Hi (opts_ok_wf_rec hash key _ now Hok)) as [H1 [H2 [H3 [H4 _]]]]. auto.
Qed.

(* over histories (HistP.v): after ANY sequence of keyed one-shot writes (any flavour, algorithm, data) and removals from
   the empty cache, a read of any key returns exactly the data of the last write to that key, or "not found" if it was
   never written or removed since.  [kv_ok]: the caller's arguments fit the record format (UTF-8 key, time < 2^128);
   [NoColl]: no two different data of the history share a digest path. *)
Theorem C02_reads_see_latest_write (h : list kvop) :
  forallb (kv_ok hash) h = true -> NoColl hash (written h) ->
  let f := fold_left (kv_run hash) h [] in
  forall k, run (read hash k) f
            = (match fold_left kv_step h (fun _ => None) k with Some (a, d) => Ok d | None => Err ENotFound end, f).
Proof. exact (reads_see_latest_write hash HL h). Qed.

(* ... from any cache that refines a map, and every value ever written stays readable by address *)
Theorem C02_history_refines (h : list kvop) f0 m0 W0 :
  HInv hash f0 m0 W0 -> forallb (kv_ok hash) h = true -> NoColl hash (W0 ++ written h) ->
  let f := fold_left (kv_run hash) h f0 in
  (forall k, run (read hash k) f = (match fold_left kv_step h m0 k with Some (a, d) => Ok d | None => Err ENotFound end, f)) /\
  (forall a d, In (a, d) (W0 ++ written h) -> run (read_hash hash (sri_of hash a d)) f = (Ok d, f)).
Proof. intros H0 Hok Hnc f. exact (hinv_reads hash HL _ _ _ (history_refines hash HL h f0 m0 W0 H0 Hok Hnc)). Qed.

(* the map: last write wins, removal clears, other keys untouched *)
Theorem C02_map_last_write h m fl a key d now k :
  fold_left kv_step (h ++ [KWrite fl a key d now]) m k = if bytes_eqb k key then Some (a, d) else fold_left kv_step h m k.
Proof. exact (kv_last_write h m fl a key d now k). Qed.
Theorem C02_map_removed h m key now k :
  fold_left kv_step (h ++ [KRemove key now]) m k = if bytes_eqb k key then None else fold_left kv_step h m k.
Proof. exact (kv_removed h m key now k). Qed.

End C02.

(* non-vacuity: the empty tree satisfies the invariant; the model run shows the conclusion on a concrete case
   around the memory-map path (declared size, two chunks) *)
Definition toy_hash (a : algo) (d : bytes) : bytes :=
  [n2b (N.modulo (lenN d) 251); n2b (N.modulo (fold_left (fun acc b => acc * 31 + b2n b)%N d 7%N) 256); x01].
Example C02_inv_empty : CacheInv [].
Proof. split; [intros p n H; discriminate|split; [intros p n H; discriminate|left; reflexivity]]. Qed.
Example C02_example :
  let o := mkWopts (Some Sha1) None (Some 5%N) None None None in
  let f' := snd (run (stream_write toy_hash Sync (Some (bs "k")) o [bs "ab"; []; bs "cde"] 9%N) []) in
  fst (run (read toy_hash (bs "k")) f') = Ok (bs "abcde") /\
  size_ok o (lenN (List.concat [bs "ab"; []; bs "cde"])) = true.
Proof.
  intros o. rewrite (run_peq (stream_write_peq toy_fast_eq)). intros f'. rewrite (run_peq (read_peq toy_fast_eq)). revert o f'.
  vm_compute. split; reflexivity.
Qed.

Print Assumptions C02_streamed_keyed.
Print Assumptions C02_streamed_keyed_closed.
Print Assumptions C02_write_closed.
Print Assumptions C02_streamed_by_hash.
Print Assumptions C02_write.
Print Assumptions C02_write_hash.

(* non-vacuity of the history theorem: a concrete history meets its premises *)
Example C02_history_example :
  let h := [KWrite Sync Sha256 (bs "k") (bs "one") 1%N; KWrite Async Sha1 (bs "j") (bs "two") 2%N;
            KWrite Sync Sha256 (bs "k") (bs "three") 3%N; KRemove (bs "j") 4%N] in
  forallb (kv_ok toy_hash) h = true /\ NoColl toy_hash (written h) /\
  fold_left kv_step h (fun _ => None) (bs "k") = Some (Sha256, bs "three") /\ fold_left kv_step h (fun _ => None) (bs "j") = None.
Proof.
  split; [vm_compute; reflexivity|]. split; [|split; vm_compute; reflexivity].
  intros a d a' d' H1 H2 Hc. cbn in H1, H2.
  destruct H1 as [E|[E|[E|[]]]]; destruct H2 as [E'|[E'|[E'|[]]]]; inversion E; inversion E'; subst; try reflexivity; vm_compute in Hc; discriminate.
Qed.
Print Assumptions C02_reads_see_latest_write.
Print Assumptions C02_history_refines.
Print Assumptions C02_map_last_write.
Print Assumptions C02_map_removed.
