(* C15 — effects stay inside the cache directory; keys are opaque; reads do not mutate.
   [may_touch c l] (theories/Crash.v) = location l can be created, changed or deleted by step c or one of its
   intermediate states ([exec_frame] in CrashIdxP proves that every other location is untouched).  Theorems, for
   EVERY answer the filesystem could give to every step (so: on any tree, under any fault):
   * every step of every mutating entry point touches only locations inside the cache, or the one destination given
     to an extraction;
   * read-only entry points (find/metadata, read, read_hash, readers, exists, list) have no touching step at all and
     return the tree exactly as it was, also at every crash state;
   * keys reach paths only through their hash; every path component below index-v5 / content-v2/<algo> is a string
     over [0-9a-f] (never ".", "..", never containing "/" or NUL), whatever the key.
   Key independence (distinct byte strings — case and normalisation twins included — are distinct entries) is C05.
   Tie to the code: strace of every path-taking / descriptor-writing syscall of the real binaries (DESIGN 7/C15). *)
From CC Require Import Bytes Sri Fs Prog Api Crash ProgP StepsP CrashIdxP ConfineP.

Section C15.
Variable hash : algo -> bytes -> bytes.

Theorem C15_exec_frame c f l :
  ~ may_touch c l ->
  lookup (snd (exec c f)) l = lookup f l /\ Forall (fun g => lookup g l = lookup f l) (mid_states c f).
Proof. exact (exec_frame c f l). Qed.

Theorem C15_writes_confined dst fl key okey o data now w f :
  wtmp_in w ->
  steps_ok (fun c _ => confined dst c) (oneshot hash fl okey o data now) f /\
  all_steps (confined dst) (open_writer fl okey o) /\ all_steps (confined dst) (write_chunk w data) /\
  all_steps (confined dst) (commit hash w now) /\ all_steps (confined dst) (insert hash key o now).
Proof.
  intros Hw. split; [apply oneshot_confined|].
  split; [exact (all_steps_impl _ _ _ (open_step_confined dst) (open_writer_steps fl okey o))|].
  split; [exact (all_steps_impl _ _ _ (fun c => tmp_step_confined dst _ c Hw) (write_chunk_steps w data))|].
  split; [exact (all_steps_impl _ _ _ (fun c => commit_step_confined hash dst w c Hw) (commit_steps hash w now))|].
  exact (all_steps_impl _ _ _ (index_step_confined dst _) (insert_steps hash key o now)).
Qed.

Theorem C15_removals_confined dst key i :
  all_steps (confined dst) (remove_hash i) /\ all_steps (confined dst) (remove_fully hash key) /\
  all_steps (confined dst) (delete hash key 0%N) /\ all_steps (confined dst) clear.
Proof.
  split; [|split; [|split]].
  - refine (all_steps_impl _ _ _ (unlink_step_confined dst _ _) (remove_hash_unlinks i)).
    intros l (cp & _ & ->). eexists. reflexivity.
  - refine (all_steps_impl _ _ _ (unlink_step_confined dst _ _) (remove_fully_unlinks hash key)).
    intros l [->|(j & cp & _ & ->)]; eexists; reflexivity.
  - exact (all_steps_impl _ _ _ (index_step_confined dst _) (delete_steps hash key 0)).
  - exact (all_steps_impl _ _ _ (clear_step_confined dst) clear_steps).
Qed.

Theorem C15_extraction_confined x checked key i dst :
  all_steps (confined (Some dst)) (extract hash x checked key dst) /\
  all_steps (confined (Some dst)) (extract_hash hash x checked i dst).
Proof.
  split; [exact (all_steps_impl _ _ _ (extract_step_confined dst) (extract_steps hash x checked key dst))|].
  exact (all_steps_impl _ _ _ (extract_step_confined dst) (extract_hash_steps hash x checked i dst)).
Qed.

Theorem C15_readonly key i :
  all_steps readonly (find hash key) /\ all_steps readonly (read hash key) /\ all_steps readonly (read_hash hash i) /\
  all_steps readonly (ropen hash key) /\ all_steps readonly (ropen_hash i) /\ all_steps readonly (exists_hash i) /\
  all_steps readonly (ls hash).
Proof.
  split; [exact (reads_readonly _ (find_reads hash key))|]. split; [exact (reads_readonly _ (read_reads hash key))|].
  split; [exact (reads_readonly _ (read_hash_reads hash i))|]. split; [exact (reads_readonly _ (ropen_reads hash key))|].
  split; [exact (reads_readonly _ (ropen_hash_reads i))|]. split; [exact (reads_readonly _ (exists_hash_reads i))|].
  exact (reads_readonly _ (ls_reads hash)).
Qed.

Theorem C15_readonly_no_mutation {A} (p : prog A) f :
  all_steps readonly p -> snd (run p f) = f /\ Forall (fun g => g = f) (crash_states p f).
Proof. exact (readonly_no_mutation p f). Qed.

Theorem C15_key_only_via_hash k1 k2 : hash Sha1 k1 = hash Sha1 k2 -> bucket_path hash k1 = bucket_path hash k2.
Proof. exact (key_only_via_hash hash k1 k2). Qed.

Theorem C15_components key i p :
  (exists a b c, bucket_path hash key = [index_dir; a; b; c] /\
     forallb hexchar a = true /\ forallb hexchar b = true /\ forallb hexchar c = true) /\
  (content_path i = Some p -> exists al a b c, p = [content_dir; algo_name al; a; b; c] /\
     forallb hexchar a = true /\ forallb hexchar b = true /\ forallb hexchar c = true).
Proof. split; [apply bucket_components_hex|apply content_components_hex]. Qed.

End C15.

Definition toy_hash (a : algo) (d : bytes) : bytes :=
  [n2b (N.modulo (lenN d) 251); n2b (N.modulo (fold_left (fun acc b => acc * 31 + b2n b)%N d 7%N) 256); x01].
(* non-vacuity: a path-like key lands in a hex-named bucket; hexchar rejects '/', '.', NUL *)
Example C15_example :
  bucket_path toy_hash (bs "../../etc/passwd") = [bs "index-v5"; bs "10"; bs "20"; bs "01"] /\
  map hexchar [x2f; x2e; x00; x41] = [false; false; false; false].
Proof. vm_compute. split; reflexivity. Qed.

Print Assumptions C15_exec_frame.
Print Assumptions C15_writes_confined.
Print Assumptions C15_removals_confined.
Print Assumptions C15_extraction_confined.
Print Assumptions C15_readonly.
Print Assumptions C15_readonly_no_mutation.
Print Assumptions C15_key_only_via_hash.
Print Assumptions C15_components.
