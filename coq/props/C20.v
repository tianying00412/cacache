(* C20 — no public call panics, aborts or hangs; every failure is a returned error.
   The model's outcomes include Panic, Hang and Stuck explicitly (Gallina's totality proves nothing by itself);
   the panic sites of the code are modelled where they are ([content_path]: ssri to_hex / hex slicing;
   [sri_check] on an empty integrity; [close_writer] addressing the computed digest).  Theorem: from EVERY tree
   (arbitrary on-disk state), for every sequence of operations with arbitrary handles, keys, data, chunkings,
   declared sizes and options — integrity ARGUMENTS well-formed, as the property assumes — every call returns Ok or
   Err.  Integrities that come out of the index are well-formed by the reader's own filter ([parse_entry_sri]).
   Partial: process aborts, stack exhaustion and executor starvation are runtime behaviour the model cannot exhibit;
   the harness runs every call under catch_unwind and a watchdog. *)
From CC Require Import Bytes Sri Prog Api Sess WriteP TotalP.

Section C20.
Variable hash : algo -> bytes -> bytes.
Hypothesis HL : HashLen hash.

Theorem C20_step_total s o now :
  sinv s -> wf_op o -> osafe (fst (step hash s o now)) /\ sinv (snd (step hash s o now)).
Proof. exact (step_total hash HL s o now). Qed.

Theorem C20_run_ops_total ops s i :
  sinv s -> Forall wf_op ops -> Forall osafe (fst (run_ops hash s ops i)).
Proof. exact (run_ops_total hash HL ops s i). Qed.

(* the same, entry point by entry point, on every tree *)
Theorem C20_reads_total key i x checked dst :
  wf_sri i ->
  psafe (find hash key) /\ psafe (read hash key) /\ psafe (read_hash hash i) /\ psafe (ropen hash key) /\
  psafe (ropen_hash i) /\ psafe (extract hash x checked key dst) /\ psafe (extract_hash hash x checked i dst) /\
  psafe (exists_hash i) /\ psafe (ls hash).
Proof.
  intros Hw. repeat split.
  - eapply fpost_psafe, find_returns. - eapply fpost_psafe, read_returns.
  - eapply fpost_psafe, read_hash_returns; assumption. - eapply fpost_psafe, ropen_returns.
  - eapply fpost_psafe, ropen_hash_returns; assumption. - eapply fpost_psafe, extract_returns.
  - eapply fpost_psafe, extract_hash_returns; assumption. - eapply fpost_psafe, exists_hash_returns; assumption.
  - eapply fpost_psafe, ls_returns.
Qed.

Theorem C20_writes_total fl a key okey o data now w i :
  wf_sri i ->
  psafe (write hash fl a key data now) /\ psafe (write_hash hash fl a data) /\ psafe (open_writer fl okey o) /\
  psafe (write_chunk w data) /\ psafe (commit hash w now) /\ psafe (drop_writer w) /\
  psafe (insert hash key o now) /\ psafe (delete hash key now) /\ psafe (remove_hash i) /\
  psafe (remove_fully hash key) /\ psafe clear.
Proof.
  intros Hw. repeat split.
  - eapply fpost_psafe, oneshot_returns; assumption. - eapply fpost_psafe, oneshot_returns; assumption.
  - eapply fpost_psafe, open_writer_returns. - eapply fpost_psafe, write_chunk_returns.
  - eapply fpost_psafe, commit_returns; assumption. - eapply fpost_psafe, drop_writer_returns.
  - eapply fpost_psafe, insert_returns. - eapply fpost_psafe, delete_returns.
  - eapply fpost_psafe, remove_hash_returns; assumption. - eapply fpost_psafe, remove_fully_returns.
  - eapply fpost_psafe, clear_returns.
Qed.

End C20.

(* the definitions of "safe": Ok or Err, nothing else *)
Check (eq_refl : @safe nat Panic = False).
Check (eq_refl : @safe nat Hang = False).
Check (eq_refl : @safe nat Stuck = False).

(* non-vacuity: the empty session state satisfies the invariant; a crafted program with a directory at a content
   path, a declared size written in two chunks and a short write runs to error values *)
Definition toy_hash (a : algo) (d : bytes) : bytes :=
  [n2b (N.modulo (lenN d) 251); n2b (N.modulo (fold_left (fun acc b => acc * 31 + b2n b)%N d 7%N) 256); x01].
Example C20_sinv0 : sinv sstate0.
Proof. intros h r H. discriminate. Qed.
Example C20_example :
  let ops := [OOpen Sync 1%N (Some (bs "k")) (mkWopts None None (Some 10%N) None None None);
              OChunk 1%N (bs "01234"); OChunk 1%N (bs "56789"); OChunk 1%N (bs "x"); OCommit 1%N;
              ORead Sync (bs "k"); OCommit 9%N] in
  map (fun o => match o with Res (Ok _) => 0 | Res (Err _) => 1 | BadArg => 2 | _ => 3 end)%N
      (fst (run_ops toy_hash sstate0 ops 0%N)) = [0; 0; 0; 0; 1; 1; 2]%N.
Proof. vm_compute. reflexivity. Qed.

Print Assumptions C20_step_total.
Print Assumptions C20_run_ops_total.
Print Assumptions C20_reads_total.
Print Assumptions C20_writes_total.
