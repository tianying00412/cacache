(* C09 — removals remove exactly what they name and nothing else.
   remove = one tombstone record in the key's bucket; remove_hash = one unlink at the address's path;
   remove_fully = unlink the entry's content, unlink the bucket; clear = remove_dir_all of every child of the root.
   Each theorem states the effect AND the frame (what is untouched).  [hash] is arbitrary.  Keys that share one
   content file: after remove_fully of one key the other key's index entry is untouched (its bucket is another
   location) while its content is gone — exactly "other index entries unaffected" as the property words it; when
   two keys share a *bucket* (SHA-1 collision) remove_fully deletes the whole bucket file (the code unlinks it),
   which is why the frame of remove_fully is stated per location, not per key. *)
From CC Require Import Bytes Sri Record Fs Prog Api IndexP WriteP CommitP RemoveP HistP TreeP HashExtP.

Section C09.
Variable hash : algo -> bytes -> bytes.

Theorem C09_remove_scope f key now :
  IndexInv f -> wf_rec hash (smeta_of key wopts0 now) ->
  let f' := snd (run (delete hash key now) f) in
  fst (run (delete hash key now) f) = Ok tt /\
  IndexInv f' /\
  (forall k, abs_idx hash f' k = if bytes_eqb k key then None else abs_idx hash f k) /\
  (forall l, (forall p, l <> InCache (index_dir :: p)) -> lookup f' l = lookup f l) /\
  (forall l, l <> InCache (bucket_path hash key) -> lookup f l <> None -> lookup f' l = lookup f l) /\
  entries hash (bucket_bytes hash f' key) = entries hash (bucket_bytes hash f key) ++ [smeta_of key wopts0 now].
Proof. exact (remove_scope hash f key now). Qed.

Theorem C09_remove_listing f key now m :
  IndexInv f -> wf_rec hash (smeta_of key wopts0 now) ->
  let f' := snd (run (delete hash key now) f) in
  In m (ls_bytes hash (bucket_bytes hash f' key)) <-> (In m (ls_bytes hash (bucket_bytes hash f key)) /\ m_key m <> key).
Proof. exact (remove_listing hash f key now m). Qed.

Theorem C09_remove_hash_scope f i :
  (forall l, (forall cp, content_path i = Some cp -> l <> InCache cp) ->
     lookup (snd (run (remove_hash i) f)) l = lookup f l) /\
  (forall cp, content_path i = Some cp ->
     (match lookup f (InCache cp) with
      | Some Dir => fst (run (remove_hash i) f) = Err EIoErr /\ snd (run (remove_hash i) f) = f
      | Some _ => fst (run (remove_hash i) f) = Ok tt /\ lookup (snd (run (remove_hash i) f)) (InCache cp) = None
      | None => fst (run (remove_hash i) f) = Err EIoErr /\ snd (run (remove_hash i) f) = f
      end)).
Proof. exact (remove_hash_scope f i). Qed.

Theorem C09_remove_fully_frame f key l :
  l <> InCache (bucket_path hash key) ->
  (forall m cp, fst (run (find hash key) f) = Ok (Some m) -> content_path (m_sri m) = Some cp -> l <> InCache cp) ->
  lookup (snd (run (remove_fully hash key) f)) l = lookup f l.
Proof. exact (remove_fully_frame hash f key l). Qed.

Theorem C09_remove_fully_scope f key m cp nd :
  IndexInv f -> abs_idx hash f key = Some m -> content_path (m_sri m) = Some cp ->
  lookup f (InCache cp) = Some nd -> nd <> Dir -> cp <> bucket_path hash key ->
  let f' := snd (run (remove_fully hash key) f) in
  fst (run (remove_fully hash key) f) = Ok tt /\
  lookup f' (InCache cp) = None /\
  lookup f' (InCache (bucket_path hash key)) = None /\
  abs_idx hash f' key = None /\
  (forall l, l <> InCache cp -> l <> InCache (bucket_path hash key) -> lookup f' l = lookup f l).
Proof. exact (remove_fully_scope hash f key m cp nd). Qed.

Theorem C09_remove_fully_content_gone f key m cp :
  IndexInv f -> abs_idx hash f key = Some m -> content_path (m_sri m) = Some cp ->
  lookup f (InCache cp) = None ->
  let f' := snd (run (remove_fully hash key) f) in
  fst (run (remove_fully hash key) f) = Ok tt /\
  abs_idx hash f' key = None /\
  (forall l, l <> InCache (bucket_path hash key) -> lookup f' l = lookup f l).
Proof.
  intros Hi Ha Hc Hn. destruct (remove_fully_content_gone hash f key m cp Hi Ha Hc Hn) as (Hr & _ & Hk & Hfr). auto.
Qed.

Theorem C09_clear_scope f :
  NoDupKeys f -> RootShape f ->
  let f' := snd (run clear f) in
  fst (run clear f) = Ok tt /\
  (forall p, lookup f' (InCache p) = None) /\
  (forall n, lookup f' (Ext n) = lookup f (Ext n)).
Proof. exact (clear_scope f). Qed.

Theorem C09_clear_usable f : NoDupKeys f -> RootShape f -> CacheInv (snd (run clear f)).
Proof. exact (clear_usable f). Qed.

(* over histories (HistP.v): after ANY sequence of keyed writes (one-shot, streamed with any chunking), writes by address,
   removals of keys, removals of content by address and FULL removals (entry + content; the bucket file is unlinked, so every
   key that shares it goes with it), the tree refines a three-part specification state — the map
   key -> (algorithm, data) of last writes, the list of stored contents, everything ever named — and every read answers
   from it: a removed key is "not found" while its content stays readable by address; a removed address makes exactly
   the keys that point at it fail (I/O error, never other bytes) while every other key and content reads as before. *)
Theorem C09_history_refines (h : list (cop)) f0 s0 :
  HashLen hash -> CInv hash f0 s0 -> forallb (c_ok hash) h = true -> NoColl hash (c_all (fold_left (c_step hash) h s0)) ->
  let f := fold_left (c_run hash) h f0 in let s := fold_left (c_step hash) h s0 in
  (forall k, run (read hash k) f = (c_read s k, f)) /\
  (forall a d, In (a, d) (c_all s) ->
     run (read_hash hash (sri_of hash a d)) f = (if memb (a, d) (c_stored s) then Ok d else Err EIoErr, f)).
Proof. intros HL H0 Hok Hnc f s. exact (cinv_reads hash HL _ _ (chistory_refines hash HL h f0 s0 H0 Hok Hnc)). Qed.

(* the specification's own laws: removing a key clears that key only and leaves the store; removing an address leaves the map *)
Theorem C09_spec_remove_key s key now :
  (forall k, c_map (c_step hash s (CRemove key now)) k = if bytes_eqb k key then None else c_map s k) /\
  c_stored (c_step hash s (CRemove key now)) = c_stored s.
Proof. split; [intros k|]; reflexivity. Qed.
Theorem C09_spec_remove_hash s a d x :
  c_map (c_step hash s (CRemoveHash a d)) = c_map s /\
  memb (a, d) (c_stored (c_step hash s (CRemoveHash a d))) = false /\
  (x <> (a, d) -> memb x (c_stored (c_step hash s (CRemoveHash a d))) = memb x (c_stored s)).
Proof.
  split; [reflexivity|]. split; [apply memb_del_same|]. intros Hne. apply memb_del_other. congruence.
Qed.

Theorem C09_spec_remove_fully s key :
  (forall k, c_map (c_step hash s (CRemoveFully key)) k
             = if list_eqb bytes_eqb (bucket_path hash k) (bucket_path hash key) then None else c_map s k) /\
  c_stored (c_step hash s (CRemoveFully key)) = match c_map s key with Some ad => del ad (c_stored s) | None => c_stored s end.
Proof. split; [intros k|]; reflexivity. Qed.

(* clearing, after ANY history (TreeP.v): the hypotheses of [C09_clear_scope] / [C09_clear_usable] — no location listed twice,
   the cache directory a tree — are invariants of every step of every API program, so whatever was written and removed
   before, clear succeeds, leaves nothing under the cache root, touches nothing outside, and the result is a usable cache *)
Theorem C09_clear_after_history (h : list cop) :
  HashLen hash ->
  let f := fold_left (c_run hash) h [] in
  fst (run clear f) = Ok tt /\
  (forall p, lookup (snd (run clear f)) (InCache p) = None) /\
  (forall n, lookup (snd (run clear f)) (Ext n) = lookup f (Ext n)) /\
  CacheInv (snd (run clear f)).
Proof. intros HL. exact (clear_after_history hash HL h). Qed.

End C09.

(* non-vacuity: a cache with two keys sharing one content file; remove_fully of one, then the other key's entry
   is still found (its content is gone), and clear empties everything *)
Definition toy_hash (a : algo) (d : bytes) : bytes :=
  [n2b (N.modulo (lenN d) 251); n2b (N.modulo (fold_left (fun acc b => acc * 31 + b2n b)%N d 7%N) 256); x01].
Definition ex_fs : fs :=
  snd (run (write toy_hash Sync Sha256 (bs "k2") (bs "data") 8%N)
        (snd (run (write toy_hash Sync Sha256 (bs "k1") (bs "data") 7%N) []))).
Example C09_example_remove_fully :
  let f' := snd (run (remove_fully toy_hash (bs "k1")) ex_fs) in
  fst (run (remove_fully toy_hash (bs "k1")) ex_fs) = Ok tt /\
  fst (run (find toy_hash (bs "k1")) f') = Ok None /\
  (exists m, fst (run (find toy_hash (bs "k2")) f') = Ok (Some m)) /\
  fst (run (read toy_hash (bs "k2")) f') = Err EIoErr /\
  fst (run (remove_fully toy_hash (bs "k2")) f') = Ok tt /\
  fst (run (find toy_hash (bs "k2")) (snd (run (remove_fully toy_hash (bs "k2")) f'))) = Ok None.
Proof.
  cbv delta [ex_fs]. rewrite !(run_peq (write_peq toy_fast_eq)), (run_peq (remove_fully_peq toy_fast_eq)).
  intros f'. rewrite !(run_peq (find_peq toy_fast_eq)), (run_peq (read_peq toy_fast_eq)), !(run_peq (remove_fully_peq toy_fast_eq)). revert f'.
  vm_compute. repeat split; try reflexivity. eexists; reflexivity.
Qed.
Example C09_example_clear :
  RootShape ex_fs /\ snd (run clear ex_fs) = [].
Proof.
  split.
  - (* [ex_fs] is what a history of two writes leaves, hence a tree *)
    assert (HL : HashLen toy_hash) by (intros a d; vm_compute; discriminate).
    exact (tree_rootshape _ (proj2 (st_history toy_hash HL [CWrite Sync Sha256 (bs "k1") (bs "data") 7; CWrite Sync Sha256 (bs "k2") (bs "data") 8] [] st_empty))).
  - cbv delta [ex_fs]. rewrite !(run_peq (write_peq toy_fast_eq)). vm_compute. reflexivity.
Qed.

Print Assumptions C09_remove_scope.
Print Assumptions C09_remove_listing.
Print Assumptions C09_remove_hash_scope.
Print Assumptions C09_remove_fully_frame.
Print Assumptions C09_remove_fully_scope.
Print Assumptions C09_remove_fully_content_gone.
Print Assumptions C09_clear_scope.
Print Assumptions C09_clear_usable.

(* non-vacuity of the history theorem: two keys share one content; the content is removed by address; one key is rewritten *)
Example C09_history_example :
  let h := [CWrite Sync Sha256 (bs "k1") (bs "same") 1%N; CStream Async (bs "k2") (mkWopts (Some Sha256) None None None None None) [bs "sa"; bs "me"] 2%N;
            CWriteHash Sync Sha1 (bs "other"); CRemoveHash Sha256 (bs "same"); CWrite Sync Sha1 (bs "k1") (bs "new") 5%N; CRemove (bs "k3") 6%N; CWrite Sync Sha1 (bs "k4") (bs "four") 7%N; CRemoveFully (bs "k4")] in
  forallb (c_ok toy_hash) h = true /\ NoColl toy_hash (c_all (fold_left (c_step toy_hash) h cspec0)) /\
  c_read (fold_left (c_step toy_hash) h cspec0) (bs "k1") = Ok (bs "new") /\
  c_read (fold_left (c_step toy_hash) h cspec0) (bs "k2") = Err EIoErr /\
  c_read (fold_left (c_step toy_hash) h cspec0) (bs "k3") = Err ENotFound.
Proof.
  split; [vm_compute; reflexivity|]. split; [|repeat split; vm_compute; reflexivity].
  intros a d a' d' H1 H2 Hc. cbn in H1, H2.
  repeat (destruct H1 as [H1|H1]; [inversion H1; subst; clear H1|]); try contradiction;
    repeat (destruct H2 as [H2|H2]; [inversion H2; subst; clear H2|]); try contradiction; try reflexivity; vm_compute in Hc; discriminate.
Qed.
Print Assumptions C09_history_refines.
Print Assumptions C09_spec_remove_key.
Print Assumptions C09_spec_remove_hash.
Print Assumptions C09_spec_remove_fully.
Print Assumptions C09_clear_after_history.
