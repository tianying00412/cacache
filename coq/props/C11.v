(* C11 — index metadata is returned exactly as supplied, with truthful defaults.
   The codec round trip is a THEOREM (JsonP / RecCodecP): serde_json's compact serializer followed by its recursive-
   descent parser (escapes, \uXXXX, number lexing, recursion limit, fuel) is the identity on every JSON value without
   floats whose containers nest at most 127 deep — all strings (any bytes), all integers, all arrays/objects — and
   the record decoder returns every record whose key / integrity text / metadata strings are valid UTF-8, time < 2^128,
   size < 2^64, metadata in serde_json's normal form (sorted unique keys: what a serde_json::Value is), any raw bytes.
   Consequently the [wf_rec] hypothesis of C02 / C05 / C08 / C04 / C09 holds for every record an API call writes with
   such arguments ([C11_opts_wf_rec]).  Decimals: the model carries floats as raw text outside the theorem's domain
   (the correspondence compares short decimals on the real code).  Defaults: time = the commit's clock reading, size =
   bytes written, metadata = null, raw = none (C02's statement, here with the side conditions discharged). *)
From Coq Require Import Lia.
From CC Require Import Bytes Utf8 Json Sri Record Prog Api IndexP WriteP CommitP JsonP RecCodecP MetaP HashExtP.
Local Open Scope N_scope.

Section C11.
Variable hash : algo -> bytes -> bytes.

Theorem C11_json_roundtrip v :
  jclean v = true -> (jdepth v <= json_depth)%nat -> parse_json (ser v) = POk v [].
Proof. exact (parse_json_ser v). Qed.

Theorem C11_string_roundtrip s rest : parse_string_body (flat_map esc s ++ x22 :: rest) = Some (s, rest).
Proof. exact (parse_string_body_ser s rest). Qed.

Theorem C11_record_roundtrip m :
  rec_ok m = true ->
  parse_smeta (encode_smeta m) = Some m /\
  (forall b, In b (encode_smeta m) -> 32 <= b2n b) /\
  valid_utf8 (record_line hash (encode_smeta m)) = true.
Proof. intros H. destruct (wf_rec_api hash m H) as [H1 [H2 H3]]. auto. Qed.

Theorem C11_opts_wf_rec key o now : opts_ok key o now = true -> wf_rec hash (smeta_of key o now).
Proof. exact (opts_ok_wf_rec hash key o now). Qed.

Theorem C11_insert_find_roundtrip f key o now :
  IndexInv f -> opts_ok key o now = true -> wf_sri_opt o ->
  let f' := snd (run (insert hash key o now) f) in
  run (find hash key) f' = (Ok (new_entry key o now), f') /\
  (forall k, k <> key -> run (find hash k) f' = (Ok (abs_idx hash f k), f')).
Proof. exact (insert_find_roundtrip hash f key o now). Qed.

Theorem C11_insert_listed f key o now i :
  IndexInv f -> opts_ok key o now = true -> wf_sri_opt o -> o_sri o = Some i ->
  let f' := snd (run (insert hash key o now) f) in
  exists m, new_entry key o now = Some m /\ In m (ls_bytes hash (bucket_bytes hash f' key)).
Proof. exact (insert_listed hash f key o now i). Qed.

(* what "the supplied fields" means, field by field *)
Theorem C11_new_entry_fields key o now i :
  o_sri o = Some i ->
  new_entry key o now = Some (mkMeta key i (match o_time o with Some t => t | None => now end)
                                     (match o_size o with Some s => s | None => 0 end)
                                     (match o_meta o with Some m => m | None => JNull end) (o_raw o)).
Proof. intros H. unfold new_entry. rewrite H. reflexivity. Qed.

(* a streamed keyed write: every supplied field comes back; defaults are the clock reading of the commit, the number
   of bytes written, null, none *)
Theorem C11_commit_fields (HL : HashLen hash) f fl key o cs now :
  CacheInv f -> o_sri o = None -> size_ok o (lenN (List.concat cs)) = true ->
  let data := List.concat cs in
  opts_ok key (commit_opts o (sri_of hash (algo_of o) data) (lenN data)) now = true ->
  let f' := snd (run (stream_write hash fl (Some key) o cs now) f) in
  exists m, run (find hash key) f' = (Ok (Some m), f') /\ m_key m = key /\ m_sri m = sri_of hash (algo_of o) data /\
            m_size m = match o_size o with Some s => s | None => lenN data end /\
            m_time m = match o_time o with Some t => t | None => now end /\
            m_metadata m = match o_meta o with Some j => j | None => JNull end /\ m_raw m = o_raw o.
Proof.
  intros Hinv Hs Hz data Hok f'.
  destruct (stream_write_keyed_roundtrip hash HL f fl key o cs now Hinv Hs Hz (opts_ok_wf_rec hash key _ now Hok)) as [_ [_ [_ [_ [_ H]]]]].
  exact H.
Qed.

End C11.

Definition toy_hash (a : algo) (d : bytes) : bytes :=
  [n2b (N.modulo (lenN d) 251); n2b (N.modulo (fold_left (fun acc b => acc * 31 + b2n b)%N d 7%N) 256); x01].
(* non-vacuity: hostile key, 2^128-1 timestamp, nested metadata with control and non-ASCII characters, raw bytes *)
Definition ex_meta : jv :=
  JObj [(bs "a", JArr [JInt (-5); JNull; JBool true; JStr [x22; x5c; x0a; x01; xc3; xa9]]); (bs "b", JObj [])].
Definition ex_opts : wopts :=
  mkWopts None (Some [mkHash Sha256 (bs "AAECAw==")]) (Some 18446744073709551615)
          (Some 340282366920938463463374607431768211455) (Some ex_meta) (Some [x00; xff; x0a]).
Example C11_example :
  opts_ok [x09; x0a; x22; x00; xc3; xa9] ex_opts 0 = true /\
  fst (run (find toy_hash [x09; x0a; x22; x00; xc3; xa9])
           (snd (run (insert toy_hash [x09; x0a; x22; x00; xc3; xa9] ex_opts 0) [])))
  = Ok (new_entry [x09; x0a; x22; x00; xc3; xa9] ex_opts 0).
Proof.
  rewrite (insert_ext toy_fast_eq), (run_peq (find_peq toy_fast_eq)).
  vm_compute. split; reflexivity.
Qed.

Print Assumptions C11_json_roundtrip.
Print Assumptions C11_string_roundtrip.
Print Assumptions C11_record_roundtrip.
Print Assumptions C11_opts_wf_rec.
Print Assumptions C11_insert_find_roundtrip.
Print Assumptions C11_insert_listed.
Print Assumptions C11_new_entry_fields.
Print Assumptions C11_commit_fields.
