(* C19 — linked entries (link_to) read back verified target bytes, never copy or clobber.
   Model: the caller's files are [Ext] locations; the content path of a linked entry holds [Symlink (LAbs target)]
   (after the fix of the relative-target defect the library stores an absolute link text for relative and absolute
   arguments alike); reads follow the link and are verified like any other read.  Theorems:
   * link_read_back: after link_to key target on a cache in the invariant, the call returns the digest address of the
     target's bytes, read by key and by address return exactly those bytes, the recorded size is their length, the
     content path holds a symlink (no copy) and the target is untouched; other keys unchanged;
   * link_never_writes_target: for EVERY tree, linker state and answer of every step, every caller file is exactly
     as before (all steps are confined to the cache);
   * target changed / removed afterwards: a read returns Ok only with bytes carrying the address's digest (C01 on the
     arbitrary tree), and an I/O error when the target is gone;
   * declared integrity / size are enforced by the same decision rule as a write's commit, and a rejected link leaves
     every lookup unchanged.
   An address that already exists as regular content is accepted by the symlink-EEXIST / exists() branch of the model;
   that case, partial reads before commit and the three flavours are exercised by the correspondence suite. *)
From CC Require Import Bytes Sri Fs Prog Api Crash ProgP StepsP IndexP ReadP WriteP CommitP ConfineP LinkP.

Section C19.
Variable hash : algo -> bytes -> bytes.
Hypothesis HL : HashLen hash.

Theorem C19_link_read_back f key target d now :
  CacheInv f -> lookup f (Ext target) = Some (File d) ->
  lookup f (InCache (cpath hash Sha256 d)) = None ->
  let o' := commit_opts (mkWopts None None (Some (lenN d)) None None None) (sri_of hash Sha256 d) (lenN d) in
  wf_rec hash (smeta_of key o' now) ->
  let f' := snd (run (link_to hash (Some key) target now) f) in
  fst (run (link_to hash (Some key) target now) f) = Ok (sri_of hash Sha256 d) /\
  run (read hash key) f' = (Ok d, f') /\
  run (read_hash hash (sri_of hash Sha256 d)) f' = (Ok d, f') /\
  lookup f' (InCache (cpath hash Sha256 d)) = Some (Symlink (LAbs target)) /\
  lookup f' (Ext target) = Some (File d) /\
  abs_idx hash f' key = new_entry key o' now /\
  (forall k, k <> key -> abs_idx hash f' k = abs_idx hash f k).
Proof. exact (link_read_back hash HL f key target d now). Qed.

Theorem C19_link_never_writes_target f l now n :
  lookup (snd (run (commit_linker hash l now) f)) (Ext n) = lookup f (Ext n).
Proof. exact (link_never_writes_target hash f l now n). Qed.

Theorem C19_linker_steps_confined plain key o target l now :
  all_steps readonly (open_linker plain key o target) /\ all_steps (confined None) (commit_linker hash l now).
Proof.
  split; [exact (reads_readonly _ (open_linker_reads plain key o target))|].
  exact (all_steps_impl _ _ _ (commit_linker_step_confined hash None l) (commit_linker_steps hash l now)).
Qed.

Theorem C19_link_target_changed f i out : fst (run (read_hash hash i) f) = Ok out -> digest_ok hash i out.
Proof. exact (link_target_changed hash f i out). Qed.

Theorem C19_link_target_removed f a d target :
  lookup f (InCache (cpath hash a d)) = Some (Symlink (LAbs target)) -> lookup f (Ext target) = None ->
  fst (run (read_hash hash (sri_of hash a d)) f) = Err EIoErr.
Proof. exact (link_target_removed hash HL f a d target). Qed.

Theorem C19_link_rejected f l now :
  ContentShape f -> IndexInv f ->
  lookup f (InCache (cpath hash (l_algo l) (l_seen l ++ l_rest l))) = None ->
  let data := l_seen l ++ l_rest l in
  (declared_ok (l_opts l) (sri_of hash (l_algo l) data) = None ->
     fst (run (commit_linker hash l now) f) = Err EIntegrity /\
     forall k, abs_idx hash (snd (run (commit_linker hash l now) f)) k = abs_idx hash f k) /\
  (forall final s, declared_ok (l_opts l) (sri_of hash (l_algo l) data) = Some final -> o_size (l_opts l) = Some s -> s <> lenN data ->
     fst (run (commit_linker hash l now) f) = Err (ESizeMismatch s (lenN data)) /\
     forall k, abs_idx hash (snd (run (commit_linker hash l now) f)) k = abs_idx hash f k).
Proof. intros Hc _. exact (link_rejected hash HL f l now Hc). Qed.

End C19.

Definition toy_hash (a : algo) (d : bytes) : bytes :=
  [n2b (N.modulo (lenN d) 251); n2b (N.modulo (fold_left (fun acc b => acc * 31 + b2n b)%N d 7%N) 256); x01].
(* non-vacuity: link, read back; change the target: integrity error; remove it: I/O error; an existing regular content
   file at the address is accepted and left alone *)
Example C19_example :
  let f0 := [(Ext (bs "t"), File (bs "target bytes"))] in
  let f1 := snd (run (link_to toy_hash (Some (bs "k")) (bs "t") 5%N) f0) in
  fst (run (read toy_hash (bs "k")) f1) = Ok (bs "target bytes") /\
  fst (run (read toy_hash (bs "k")) (update f1 (Ext (bs "t")) (File (bs "other")))) = Err EIntegrity /\
  fst (run (read toy_hash (bs "k")) (remove f1 (Ext (bs "t")))) = Err EIoErr /\
  (let g := snd (run (write_hash toy_hash Sync Sha256 (bs "target bytes")) f0) in
   fst (run (link_to toy_hash (Some (bs "k")) (bs "t") 5%N) g) = Ok (sri_of toy_hash Sha256 (bs "target bytes")) /\
   lookup (snd (run (link_to toy_hash (Some (bs "k")) (bs "t") 5%N) g)) (InCache (cpath toy_hash Sha256 (bs "target bytes"))) = Some (File (bs "target bytes"))).
Proof. vm_compute. repeat split; reflexivity. Qed.

Print Assumptions C19_link_read_back.
Print Assumptions C19_link_never_writes_target.
Print Assumptions C19_linker_steps_confined.
Print Assumptions C19_link_target_changed.
Print Assumptions C19_link_target_removed.
Print Assumptions C19_link_rejected.
