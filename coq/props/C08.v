(* C08 — commit enforces declared integrity and size; a rejected commit maps nothing.
   For every open writer state satisfying the writer invariant (i.e. reached by any chunk list, any options),
   every tree with the cache shape invariant.  The three cases below are exhaustive. *)
From CC Require Import Bytes Sri Fs Prog Api SriP IndexP WriteP CommitP.

Section C08.
Variable hash : algo -> bytes -> bytes.
Hypothesis HL : HashLen hash.

(* rejected: integrity error if the declared integrity is not satisfied, else size mismatch if the declared
   size differs; in both cases every index location (hence every key's mapping) is untouched and no temp
   file remains *)
Theorem C08_rejected f w now :
  WInv f w -> CacheInv f ->
  (declared_ok (w_opts w) (sri_of hash (w_algo w) (w_data w)) = None \/
   exists s, o_size (w_opts w) = Some s /\ s <> lenN (w_data w)) ->
  (fst (run (commit hash w now) f) = Err EIntegrity \/
   exists s, fst (run (commit hash w now) f) = Err (ESizeMismatch s (lenN (w_data w)))) /\
  (forall l, is_index l -> lookup (snd (run (commit hash w now) f)) l = lookup f l) /\
  (forall k, abs_idx hash (snd (run (commit hash w now) f)) k = abs_idx hash f k) /\
  lookup (snd (run (commit hash w now) f)) (w_tmp w) = None /\
  CacheInv (snd (run (commit hash w now) f)).
Proof. exact (commit_rejected_frame hash HL f w now). Qed.

(* which error: the integrity check comes first *)
Theorem C08_integrity_first f w now :
  WInv f w -> CacheInv f ->
  declared_ok (w_opts w) (sri_of hash (w_algo w) (w_data w)) = None ->
  fst (run (commit hash w now) f) = Err EIntegrity.
Proof. intros Hw Hi Hd. rewrite (commit_rejected_integrity hash HL f w now Hw Hi Hd). reflexivity. Qed.

Theorem C08_size_mismatch f w now final s :
  WInv f w -> CacheInv f ->
  declared_ok (w_opts w) (sri_of hash (w_algo w) (w_data w)) = Some final ->
  o_size (w_opts w) = Some s -> s <> lenN (w_data w) ->
  fst (run (commit hash w now) f) = Err (ESizeMismatch s (lenN (w_data w))).
Proof. intros Hw Hi Hd Hs Hne. rewrite (commit_rejected_size hash HL f w now Hw Hi final s Hd Hs Hne). reflexivity. Qed.

(* accepted, keyed: success, and the key now maps to the complete new entry; other keys unchanged *)
Theorem C08_accepted_keyed f w now key final :
  WInv f w -> CacheInv f -> w_key w = Some key ->
  declared_ok (w_opts w) (sri_of hash (w_algo w) (w_data w)) = Some final ->
  size_ok (w_opts w) (lenN (w_data w)) = true ->
  wf_rec hash (smeta_of key (commit_opts (w_opts w) final (lenN (w_data w))) now) ->
  parse_entry_sri (sri_text final) = Some final ->
  fst (run (commit hash w now) f) = Ok final /\
  CacheInv (snd (run (commit hash w now) f)) /\
  (forall k, abs_idx hash (snd (run (commit hash w now) f)) k
             = if bytes_eqb k key then new_entry key (commit_opts (w_opts w) final (lenN (w_data w))) now
               else abs_idx hash f k) /\
  lookup (snd (run (commit hash w now) f)) (InCache (cpath hash (w_algo w) (w_data w))) = Some (File (w_data w)) /\
  lookup (snd (run (commit hash w now) f)) (w_tmp w) = None /\
  (forall l, ~ is_index l -> ~ is_content l -> l <> w_tmp w ->
             lookup (snd (run (commit hash w now) f)) l = lookup f l).
Proof. exact (commit_keyed_accepted hash HL f w now key final). Qed.

(* accepted, by address *)
Theorem C08_accepted_by_hash f w now final :
  WInv f w -> CacheInv f -> w_key w = None ->
  declared_ok (w_opts w) (sri_of hash (w_algo w) (w_data w)) = Some final ->
  size_ok (w_opts w) (lenN (w_data w)) = true ->
  fst (run (commit hash w now) f) = Ok (sri_of hash (w_algo w) (w_data w)).
Proof. intros Hw Hi Hk Hd Hs. rewrite (commit_by_hash_ok hash HL f w now Hw Hi final Hd Hs Hk). reflexivity. Qed.

(* "satisfies the declared integrity" = the declaration contains the digest under the writer's algorithm *)
Theorem C08_correct_declaration_accepted a d : declared_ok (mkWopts (Some a) (Some (sri_of hash a d)) None None None None) (sri_of hash a d) = Some (sri_of hash a d).
Proof. unfold declared_ok. cbn [o_sri]. rewrite (sri_matches_self hash a d). reflexivity. Qed.

End C08.

Definition toy_hash (a : algo) (d : bytes) : bytes :=
  [n2b (N.modulo (lenN d) 251); n2b (N.modulo (fold_left (fun acc b => acc * 31 + b2n b)%N d 7%N) 256); x01].
Example C08_example :
  let o := mkWopts (Some Sha256) None (Some 5%N) None None None in
  fst (run (stream_write toy_hash Sync (Some (bs "k")) o [bs "ab"; bs "c"] 9%N) []) = Err (ESizeMismatch 5 3) /\
  fst (run (stream_write toy_hash Sync (Some (bs "k")) o [bs "abcdef"; bs "g"] 9%N) []) = Err (ESizeMismatch 5 7) /\
  fst (run (stream_write toy_hash Async None
         (mkWopts None (Some (sri_of toy_hash Sha256 (bs "zz"))) None None None None) [bs "ab"] 9%N) []) = Err EIntegrity.
Proof. vm_compute. repeat split; reflexivity. Qed.

Print Assumptions C08_rejected.
Print Assumptions C08_integrity_first.
Print Assumptions C08_size_mismatch.
Print Assumptions C08_accepted_keyed.
Print Assumptions C08_accepted_by_hash.
Print Assumptions C08_correct_declaration_accepted.
