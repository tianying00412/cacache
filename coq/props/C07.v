(* C07 — concurrent, lock-free use behaves like some serial order.
   Model (theories/Conc.v): a pool of step programs, one transition = one filesystem step of one thread (rename, a
   single O_APPEND write, O_EXCL creation are atomic steps: modelled, not verified).
   General theorems, any number of threads, any interleaving:
   * C07_explore_complete: the explorer returns every terminal state of every interleaving of a pool;
   * C07_interleave_invariant / C07_conc_content_inv: an invariant kept by every (state-independently safe) step holds
     in every reachable state — no reader ever sees partial content under an address;
   * C07_appends_never_splice: appends of any threads to one bucket give the whole records in step order.
   * C07_conc_index_serializable — UNBOUNDED serialisability of the index: any number of concurrent index writers
     (inserts and tombstone removals: the index phase of every keyed write and of every removal), any interleaving of
     their mkdir / open(O_CREAT|O_APPEND) / append steps, from any tree with a well-shaped index area: no step fails,
     every operation returns Ok, and the final buckets and lookups are those of running the operations serially in the
     order of their append steps (a permutation of the operations).  No successful write is lost or spliced.
   * C07_conc_writes_serializable — UNBOUNDED serialisability of concurrent keyed writers AND removers: any number of
     one-shot writers (same key, different keys, identical or different content, any algorithms) and tombstone removers
     (the index insert of a removal), any interleaving of all their
     steps (mkdir tmp, O_EXCL temp file, data write, mkdir content, rename, mkdir index, open, append), from any tree in
     the cache invariant: no step fails; every writer returns the digest address of its data; every written content is
     completely stored under its address; the invariant is kept; and the index is exactly the one of the serial run of the
     writers in the order of their append steps.  Proof: per-thread stage predicate (the program term each thread can
     be at, with what it needs of the tree), a stability ("rely") relation — directories stay, bucket files stay files,
     published content stays, nobody touches another thread's temp file (fresh O_EXCL names are pairwise distinct) — and
     the ghost order of appends.  Hypothesis: the writers' data do not collide under their content paths.
   * C07_readers_among_writers — UNBOUNDED, readers included: any number of readers ([read key]: one step on the bucket,
     one on the content file) run with any number of such writers / removers, any interleaving of all steps (two pools
     on one tree, theories/Conc.v [ostep]).  The writers run exactly as without the readers, and the result of every
     reader is the result of the same read executed ATOMICALLY in the reachable state of the writers at which its index
     step happened: no reader observes partial content or a partial index record.  C07_atomic_read_value: such an
     atomic read answers "not found" or the complete, verified bytes of the initial entry or of one of the writers of
     that key whose record is appended.  Invariants behind it: content files are monotone (published bytes are only
     ever replaced by identical bytes), every content file comes from the initial cache or is the complete data of a
     writer, every visible index entry is backed by its content.  Hypotheses: as above plus the writers' data do not
     collide with content already stored, and the initial entries are backed (true of the empty cache and of every
     state such writers reach: C07_backed_reachable).
   * C07_serializable_with_readers — the property's statement for {write, remove, read}, UNBOUNDED: for any number of
     keyed one-shot writers, tombstone removers and readers by key, any interleaving of all their steps, from any
     cache that is the result of a sequential history (HistP.HInv; the empty cache included), there is ONE sequential
     order of the writers / removers (a permutation: the order of their append steps) and for every reader a position
     n in it such that every writer / remover returns what it returns alone, every read of the final tree answers as
     on the tree obtained by RUNNING the writers / removers one after the other in that order ([serial]: real
     sequential runs of the library's write / delete programs), and the reader's result is the result of the same read
     on the tree obtained by running the first n of them one after the other.  Hypotheses: arguments the record codec
     accepts (kv_ok, decidable), no digest collision among the data involved (NoColl) nor with content already stored
     (coll0).  C07_serializable_mixed: the same with observers of four kinds in one pool — read by key, metadata (index
     lookup), read by the address of some data, existence test; all answers and the final state are those of one
     sequential order (a content observer that sees the bytes is placed at the end of the order — content is visible
     before its writer's record is — one that does not see them at its ghost prefix).
   Serialisability of whole operations mixing readers / removers / listers, bounded (the bound is part of each statement): for the nine concrete pairs below — drawn from the
   property's operation set on cold and warm caches, with a toy hash, concrete keys and contents (two writers of one key /
   of one content are taken after their private temp-file phase, i.e. as two commits) — EVERY interleaving of
   the two operations' steps ends with results and a tree equal to those of one of the two serial orders
   ([forallb serial_ok] over the explorer's complete output, evaluated by the kernel's VM, lifted by
   [explore_complete]).  Partial: unbounded serialisability is proved for keyed one-shot writers, tombstone
   removers and readers by key (above); for streamed writers, removals by address, listers and existence tests it is
   bounded (the pairs below); triples and the real kernel's atomicity are exercised by the forced-schedule suite on the
   real binaries. *)
From CC Require Import Bytes Sri Record Fs Prog Api Sess Crash Conc BytesP FsP IndexP WriteP CommitP CrashP
  CrashIdxP FormatP ConfineP RecCodecP HistP ConcP ConcIdxP ConcWriteP ConcReadP ConcSerP HashExtP.
From Coq Require Import Permutation.
Local Open Scope N_scope.

Section C07.
Variable hash : algo -> bytes -> bytes.

Theorem C07_explore_complete {A} fuel (pl : pool A) f L :
  explore fuel pl f = Some L ->
  forall pl' f' rs, preach (pl, f) (pl', f') -> results pl' = Some rs -> In (rs, f') L.
Proof. exact (explore_complete fuel pl f L). Qed.

Theorem C07_interleave_invariant {A} (P : fs -> Prop) (S' : sys -> Prop) :
  (forall c f, P f -> S' c -> P (snd (exec c f))) ->
  forall (s s' : pool A * fs), preach s s' -> Forall (all_steps S') (fst s) -> P (snd s) -> Forall (all_steps S') (fst s') /\ P (snd s').
Proof. exact (interleave_invariant P S'). Qed.

Theorem C07_conc_content_inv {A} (s s' : pool A * fs) :
  preach s s' -> Forall (all_steps csafe') (fst s) -> ContentInv hash (snd s) -> ContentInv hash (snd s').
Proof. exact (conc_content_inv hash s s'). Qed.

Theorem C07_appends_never_splice l d recs f :
  lookup f l = Some (File d) ->
  lookup (fold_left (fun g r => snd (exec (Append l r) g)) recs f) l = Some (File (d ++ List.concat recs)).
Proof. exact (appends_never_splice l d recs f). Qed.

Theorem C07_conc_index_serializable hs f0 pl' f' rs :
  IndexInv f0 -> Forall (wf_hop hash) hs ->
  preach (map (hop_prog hash) hs, f0) (pl', f') -> results pl' = Some rs ->
  exists perm,
    Permutation perm hs /\
    rs = repeat (Ok tt) (List.length hs) /\
    IndexInv f' /\
    (forall b, bshape b -> bucket_at f' b = bucket_at (fold_left (exec_hop hash) perm f0) b) /\
    (forall k, abs_idx hash f' k = fold_left spec_step perm (abs_idx hash f0) k).
Proof. exact (conc_index_serializable hash hs f0 pl' f' rs). Qed.

Theorem C07_conc_writes_serializable (HL : HashLen hash) ws f0 pl' f' rs :
  CacheInv f0 -> coll_free hash ws -> Forall (fun x => wf_rec hash (hop_rec (x_hop hash x))) ws ->
  preach (map (wprog hash) ws, f0) (pl', f') -> results pl' = Some rs ->
  rs = map (fun x => Ok (x_res hash x)) ws /\
  (forall x, In x ws -> ws_rm x = false -> lookup f' (InCache (x_cp hash x)) = Some (File (ws_data x))) /\
  CacheInv f' /\
  exists perm, Permutation perm ws /\
    (forall b, bshape b -> bucket_at f' b = bucket_at (fold_left (exec_hop hash) (map (x_hop hash) perm) f0) b) /\
    (forall k, abs_idx hash f' k = fold_left spec_step (map (x_hop hash) perm) (abs_idx hash f0) k).
Proof. exact (conc_writes_serializable hash HL ws f0 pl' f' rs). Qed.

(* readers: a lookup is a single step; in any reachable state of a pool of index writers it answers the serial state of the
   operations appended so far, and later observations see longer prefixes of the same order (linearisability of lookups;
   no reader observes a partial index record) *)
Theorem C07_observations_monotone hs f0 s1 s2 :
  IndexInv f0 -> Forall (wf_hop hash) hs ->
  preach (map (hop_prog hash) hs, f0) s1 -> preach s1 s2 ->
  exists done ext,
    (forall k, run (find hash k) (snd s1) = (Ok (fold_left spec_step (hops_of hs done) (abs_idx hash f0) k), snd s1)) /\
    (forall k, run (find hash k) (snd s2) = (Ok (fold_left spec_step (hops_of hs (done ++ ext)) (abs_idx hash f0) k), snd s2)).
Proof. exact (observations_monotone hash hs f0 s1 s2). Qed.

(* readers among writers: each reader answers as the same read run atomically at a reachable state of the writers *)
Theorem C07_readers_among_writers (HL : HashLen hash) ws f0 ks pl' rl' f' :
  CacheInv f0 -> Backed hash f0 -> coll_free hash ws -> coll0 hash ws f0 ->
  Forall (fun x => wf_rec hash (hop_rec (x_hop hash x))) ws ->
  oreach (map (wprog hash) ws, map (read hash) ks, f0) (pl', rl', f') ->
  preach (map (wprog hash) ws, f0) (pl', f') /\
  forall j a, (j < List.length ks)%nat -> nth j rl' (Ret Stuck) = Ret a ->
    exists s1, preach (map (wprog hash) ws, f0) s1 /\ preach s1 (pl', f') /\
               a = fst (run (read hash (nth j ks [])) (snd s1)).
Proof. intros H1 H2 H3 H4 H5. exact (readers_among_writers hash HL ws f0 H1 H2 H3 H4 H5 ks pl' rl' f'). Qed.

Theorem C07_atomic_read_value (HL : HashLen hash) ws f0 k s :
  CacheInv f0 -> Backed hash f0 -> coll_free hash ws -> coll0 hash ws f0 ->
  Forall (fun x => wf_rec hash (hop_rec (x_hop hash x))) ws ->
  preach (map (wprog hash) ws, f0) s ->
  fst (run (read hash k) (snd s)) = Err ENotFound /\ abs_idx hash (snd s) k = None \/
  exists m d, abs_idx hash (snd s) k = Some m /\ fst (run (read hash k) (snd s)) = Ok d /\ check_res hash (m_sri m) d = Ok tt /\
    (abs_idx hash f0 k = Some m \/
     exists x, In x ws /\ ws_rm x = false /\ bytes_eqb k (ws_key x) = true /\ m_sri m = x_sri hash x /\ d = ws_data x).
Proof. intros H1 H2 H3 H4 H5. exact (atomic_read_value hash HL ws f0 H1 H2 H3 H4 H5 k s). Qed.

Theorem C07_backed_reachable (HL : HashLen hash) ws f0 s :
  CacheInv f0 -> Backed hash f0 -> coll_free hash ws -> coll0 hash ws f0 ->
  Forall (fun x => wf_rec hash (hop_rec (x_hop hash x))) ws ->
  preach (map (wprog hash) ws, f0) s -> CacheInv (snd s) /\ Backed hash (snd s).
Proof. intros H1 H2 H3 H4 H5. exact (reach_cache_ok hash HL ws f0 H1 H2 H3 H4 H5 s). Qed.

(* writers, removers and readers: one sequential order explains every result and the final state *)
Theorem C07_serializable_with_readers (HL : HashLen hash) ws f0 m0 W0 ks pl' rl' f' rs :
  HInv hash f0 m0 W0 -> coll0 hash ws f0 ->
  forallb (kv_ok hash) (map kv_of ws) = true -> NoColl hash (W0 ++ written (map kv_of ws)) ->
  oreach (map (wprog hash) ws, map (read hash) ks, f0) (pl', rl', f') -> results pl' = Some rs ->
  exists perm,
    Permutation perm ws /\
    rs = map (fun x => Ok (x_res hash x)) ws /\
    (forall k, fst (run (read hash k) f') = fst (run (read hash k) (serial hash f0 perm))) /\
    (forall j a, (j < List.length ks)%nat -> nth j rl' (Ret Stuck) = Ret a ->
       exists n, (n <= List.length perm)%nat /\ a = fst (run (read hash (nth j ks [])) (serial hash f0 (firstn n perm)))).
Proof. intros H1 H2 H3 H4. exact (serializable_with_readers hash HL ws f0 m0 W0 H1 H2 H3 H4 ks pl' rl' f' rs). Qed.

(* the same with observers of four kinds in one pool: read by key (two steps), metadata / index lookup, read by the
   address of some data, existence test (one step each).  For the two content observers the initial content area must hold
   no symbolic link (true of every cache ordinary writes produce; link_to entries are excluded) *)
Theorem C07_serializable_mixed (HL : HashLen hash) ws f0 m0 W0 ops pl' rl' f' rs :
  HInv hash f0 m0 W0 -> coll0 hash ws f0 ->
  forallb (kv_ok hash) (map kv_of ws) = true -> NoColl hash (W0 ++ written (map kv_of ws)) ->
  oreach (map (wprog hash) ws, map (rprog hash) ops, f0) (pl', rl', f') -> results pl' = Some rs ->
  exists perm,
    Permutation perm ws /\
    rs = map (fun x => Ok (x_res hash x)) ws /\
    (forall op, (content_op op -> NoSymC f0) -> ranswer hash op f' = ranswer hash op (serial hash f0 perm)) /\
    (forall j a, (j < List.length ops)%nat -> (content_op (nth j ops (RMeta [])) -> NoSymC f0) ->
       nth j rl' (Ret (OMeta Stuck)) = Ret a ->
       exists n, (n <= List.length perm)%nat /\ a = ranswer hash (nth j ops (RMeta [])) (serial hash f0 (firstn n perm))).
Proof. intros H1 H2 H3 H4. exact (serializable_mixed hash HL ws f0 m0 W0 H1 H2 H3 H4 ops pl' rl' f' rs). Qed.

(* the observer programs are the library's programs (their results tagged), the atomic answers their runs *)
Theorem C07_rprog_is_library op :
  rprog hash op = match op with
                  | RRead k => bind (read hash k) (fun r => Ret (OBytes r))
                  | RMeta k => bind (find hash k) (fun r => Ret (OMeta r))
                  | RHash a d => bind (read_hash hash (sri_of hash a d)) (fun r => Ret (OBytes r))
                  | RExists a d => bind (exists_hash (sri_of hash a d)) (fun r => Ret (OBool r))
                  end /\
  forall f, ranswer hash op f = match op with
                                | RRead k => OBytes (fst (run (read hash k) f))
                                | RMeta k => OMeta (fst (run (find hash k) f))
                                | RHash a d => OBytes (fst (run (read_hash hash (sri_of hash a d)) f))
                                | RExists a d => OBool (fst (run (exists_hash (sri_of hash a d)) f))
                                end.
Proof. split; [destruct op; reflexivity|intros f; destruct op; reflexivity]. Qed.

(* the empty cache has no symbolic link; neither has any state the writers reach from a cache without one *)
Theorem C07_nosym_empty : NoSymC [].
Proof. intros p t H. discriminate. Qed.

(* [serial] is the sequential execution of the library's programs: a writer's [write], a remover's [delete] *)
Theorem C07_serial_is_sequential f0 x xs :
  serial hash f0 (x :: xs) =
  serial hash (if ws_rm x then snd (run (delete hash (ws_key x) (ws_now x)) f0)
               else snd (run (write hash Sync (ws_a x) (ws_key x) (ws_data x) (ws_now x)) f0)) xs.
Proof. unfold serial, kv_of. cbn [map fold_left]. destruct (ws_rm x); reflexivity. Qed.

(* the hypothesis on the initial cache holds for the empty cache and after every sequential history *)
Theorem C07_initial_cache_ok (HL : HashLen hash) h :
  forallb (kv_ok hash) h = true -> NoColl hash (written h) ->
  HInv hash (fold_left (kv_run hash) h []) (fold_left kv_step h (fun _ => None)) (written h).
Proof. intros H1 H2. exact (history_refines hash HL h [] _ [] (hinv_empty hash) H1 H2). Qed.

Theorem C07_backed_empty : Backed hash [].
Proof. exact (backed_empty hash). Qed.

(* the reader programs of that theorem are the library's read programs and never change the tree *)
Theorem C07_read_is_readonly key : all_steps readonly (read hash key).
Proof. exact (read_ro hash key). Qed.

(* the thread programs of that theorem are the library's write_sync programs (async write runs identically: C12) *)
Theorem C07_wprog_is_write x :
  wprog hash x = if ws_rm x then insert hash (ws_key x) wopts0 (ws_now x)
                 else write hash Sync (ws_a x) (ws_key x) (ws_data x) (ws_now x).
Proof. reflexivity. Qed.

(* the thread programs of the index theorem are the library's index programs *)
Theorem C07_hop_prog_is_insert key o now :
  insert hash key o now = seq_prog (hop_steps hash (HIns key o now)) (match o_sri o with Some i => i | None => deadbeef end) /\
  hop_prog hash (HIns key o now) = seq_prog (hop_steps hash (HIns key o now)) tt.
Proof. split; reflexivity. Qed.

End C07.

(* bounded serialisability: concrete pairs, all interleavings *)
Definition toy_hash (a : algo) (d : bytes) : bytes :=
  [n2b (N.modulo (lenN d) 251); n2b (N.modulo (fold_left (fun acc b => acc * 31 + b2n b)%N d 7%N) 256); x01].

Definition pv {A} (p : prog (res A)) (g : A -> val) : prog outcome := bind p (fun r => Ret (Res (rmap g r))).

Definition show1 (o : outcome) : list bytes := let '(a, b) := show_outcome o in a :: b.
Definition same_lines (a b : list bytes) : bool :=
  Nat.eqb (List.length a) (List.length b) && forallb (fun x => existsb (bytes_eqb x) b) a && forallb (fun x => existsb (bytes_eqb x) a) b.

(* results and final tree of running the two programs one after the other *)
Definition serial2 (pA pB : prog outcome) (f : fs) : list outcome * fs :=
  let '(ra, fa) := run pA f in let '(rb, fb) := run pB fa in ([ra; rb], fb).
(* the two serial references are computed once per pair *)
Definition refs (pA pB : prog outcome) (f0 : fs) : (list (list bytes) * list bytes) * (list (list bytes) * list bytes) :=
  let '(r1, f1) := serial2 pA pB f0 in
  let '(r2, f2) := serial2 pB pA f0 in
  ((map show1 r1, dump toy_hash f1), (map show1 (rev r2), dump toy_hash f2)).
Definition serial_ok_ref (R : (list (list bytes) * list bytes) * (list (list bytes) * list bytes)) (x : list outcome * fs) : bool :=
  let '(rs, f') := x in
  let '((o1, d1), (o2, d2)) := R in
  let os := map show1 rs in let d := dump toy_hash f' in
  (list_eqb (list_eqb bytes_eqb) os o1 && same_lines d d1) || (list_eqb (list_eqb bytes_eqb) os o2 && same_lines d d2).
Definition serial_ok (pA pB : prog outcome) (f0 : fs) (x : list outcome * fs) : bool := serial_ok_ref (refs pA pB f0) x.

Definition all_serial (pA pB : prog outcome) (f0 : fs) : bool :=
  match explore 40 [pA; pB] f0 with
  | Some L => let R := refs pA pB f0 in forallb (serial_ok_ref R) L
  | None => false
  end.

Lemma all_serial_sound pA pB f0 :
  all_serial pA pB f0 = true ->
  forall pl' f' rs, preach ([pA; pB], f0) (pl', f') -> results pl' = Some rs -> serial_ok pA pB f0 (rs, f') = true.
Proof.
  unfold all_serial. destruct (explore 40 [pA; pB] f0) as [L|] eqn:E; [|discriminate]. intros H pl' f' rs Hr Hres.
  cbv zeta in H. rewrite forallb_forall in H. apply H. exact (explore_complete 40 [pA; pB] f0 L E pl' f' rs Hr Hres).
Qed.

Definition K := bs "k". Definition K2 := bs "k2".
Definition DA := bs "content A". Definition DB := bs "content B!".
Definition wr (key data : bytes) (now : N) : prog outcome := pv (write toy_hash Sync Sha256 key data now) VSri.
Definition warm : fs := snd (run (wr K DA 1) []).
Definition sA : integrity := sri_of toy_hash Sha256 DA.

(* a writer that has opened its temp file and written its data (the private phase), ready to commit *)
Definition prep (key data : bytes) (f : fs) : option (wstate * fs) :=
  match run (open_writer Sync (Some key) (mkWopts (Some Sha256) None None None None None)) f with
  | (Ok w, f1) => match run (write_chunk w data) f1 with (Ok w', f2) => Some (w', f2) | _ => None end
  | _ => None
  end.
Definition two_committers (k1 d1 k2 d2 : bytes) : option (prog outcome * prog outcome * fs) :=
  match prep k1 d1 [] with
  | Some (w1, f1) => match prep k2 d2 f1 with
                     | Some (w2, f2) => Some (pv (commit toy_hash w1 2) VSri, pv (commit toy_hash w2 3) VSri, f2)
                     | None => None end
  | None => None
  end.
Definition opt_pair (o : option (prog outcome * prog outcome * fs)) : list (prog outcome * prog outcome * fs) :=
  match o with Some t => [t] | None => [] end.

Definition pairs : list (prog outcome * prog outcome * fs) :=
  opt_pair (two_committers K DA K DB) ++                                  (* two commits of one key (temp files written) *)
  opt_pair (two_committers K DA K2 DA) ++                                 (* same content, two keys *)
  [ (wr K DB 2, pv (delete toy_hash K 3) (fun _ => VUnit), warm);        (* whole write vs remove *)
    (wr K2 DA 2, pv (remove_hash sA) (fun _ => VUnit), warm);            (* write vs remove_hash of the same address *)
    (wr K DB 2, pv (read toy_hash K) VBytes, warm);                      (* write vs read *)
    (wr K DB 2, pv (find toy_hash K) VMeta, warm);                       (* write vs metadata *)
    (wr K2 DB 2, pv (ls toy_hash) VList, warm);                          (* write vs list *)
    (pv (write_hash toy_hash Sync Sha256 DA) VSri, pv (exists_hash sA) VBool, []);
    (pv (delete toy_hash K 2) (fun _ => VUnit), pv (read_hash toy_hash sA) VBytes, warm) ].

Example C07_pairs_count : List.length pairs = 9%nat.
Proof. vm_compute. reflexivity. Qed.

(* Checking: [all_serial_direct] compares the trees themselves, not their dumps; [pairs_of] is [pairs] with the hash
   function abstracted, and evaluating it at [toy_fast], tabulated, computes each digest once and cheaply.  Both matter to a
   checker that replays the evaluation by lazy reduction, where one [toy_hash] of a record or one hex dump of a bucket is slow. *)
Definition entry_eqb (x y : loc * node) : bool :=
  loc_eqb (fst x) (fst y) &&
  match snd x, snd y with
  | File d, File e => bytes_eqb d e
  | Dir, Dir => true
  | Symlink (LAbs s), Symlink (LAbs t) | Symlink (LDangling s), Symlink (LDangling t) => bytes_eqb s t
  | _, _ => false
  end.
(* equal as multisets: the entries of [a] are taken out of [b] one by one (the two lists are nearly in the same order) *)
Fixpoint take_out (x : loc * node) (b : fs) : option fs :=
  match b with
  | [] => None
  | y :: t => if entry_eqb x y then Some t else option_map (cons y) (take_out x t)
  end.
Fixpoint same_fs (a b : fs) : bool :=
  match a with
  | [] => match b with [] => true | _ => false end
  | x :: a' => match take_out x b with Some b' => same_fs a' b' | None => false end
  end.

Lemma entry_eqb_eq x y : entry_eqb x y = true -> x = y.
Proof.
  destruct x as [l n], y as [l' n']. unfold entry_eqb. cbn [fst snd]. rewrite andb_true_iff. intros [Hl Hn]. f_equal.
  - apply loc_eqb_eq, Hl.
  - destruct n as [d| |[t|t]], n' as [d'| |[t'|t']]; try discriminate Hn; try reflexivity; apply bytes_eqb_eq in Hn; subst; reflexivity.
Qed.

Lemma same_fs_perm a : forall b, same_fs a b = true -> Permutation a b.
Proof.
  assert (T : forall x b b', take_out x b = Some b' -> Permutation b (x :: b')).
  { intros x. induction b as [|y t IH]; intros b' H; cbn [take_out] in H; [discriminate|]. destruct (entry_eqb x y) eqn:E.
    - apply entry_eqb_eq in E. inversion H; subst. reflexivity.
    - destruct (take_out x t) as [t'|]; [|discriminate]. inversion H; subst. rewrite (IH t' eq_refl). apply perm_swap. }
  induction a as [|x a IH]; intros b H; cbn [same_fs] in H; [destruct b; [constructor|discriminate]|].
  destruct (take_out x b) as [b'|] eqn:E; [|discriminate]. rewrite (T _ _ _ E). constructor. apply IH, H.
Qed.

Lemma same_lines_perm a b : Permutation a b -> same_lines a b = true.
Proof.
  intros P. unfold same_lines. rewrite (Permutation_length P), Nat.eqb_refl. cbn [andb]. rewrite andb_true_iff, !forallb_forall.
  split; intros x Hx; apply existsb_exists; exists x; (split; [|apply bytes_eqb_refl]);
    [exact (Permutation_in _ P Hx)|exact (Permutation_in _ (Permutation_sym P) Hx)].
Qed.

Lemma same_fs_dump h a b : same_fs a b = true -> same_lines (dump h a) (dump h b) = true.
Proof. intros H. apply same_lines_perm, Permutation_map, same_fs_perm, H. Qed.

Definition all_serial_direct (pA pB : prog outcome) (f0 : fs) : bool :=
  match explore 40 [pA; pB] f0 with
  | Some L =>
      let '(r1, f1) := serial2 pA pB f0 in let '(r2, f2) := serial2 pB pA f0 in
      let o1 := map show1 r1 in let o2 := map show1 (rev r2) in
      forallb (fun x => let os := map show1 (fst x) in
                        (list_eqb (list_eqb bytes_eqb) os o1 && same_fs (snd x) f1) ||
                        (list_eqb (list_eqb bytes_eqb) os o2 && same_fs (snd x) f2)) L
  | None => false
  end.

Lemma all_serial_direct_sound pA pB f0 : all_serial_direct pA pB f0 = true -> all_serial pA pB f0 = true.
Proof.
  unfold all_serial_direct, all_serial, refs. destruct (explore 40 [pA; pB] f0) as [L|]; [|exact id].
  destruct (serial2 pA pB f0) as [r1 f1], (serial2 pB pA f0) as [r2 f2]. cbv zeta. rewrite !forallb_forall.
  intros H [rs f'] Hx. specialize (H _ Hx). cbn [fst snd serial_ok_ref] in *. rewrite orb_true_iff, !andb_true_iff in *.
  destruct H as [[H1 H2]|[H1 H2]]; [left|right]; (split; [exact H1|apply same_fs_dump, H2]).
Qed.

Lemma all_serial_direct_peq pA pA' pB pB' f0 :
  peq pA pA' -> peq pB pB' -> all_serial_direct pA pB f0 = all_serial_direct pA' pB' f0.
Proof.
  intros HA HB. assert (S2 : forall p p' q q', peq p p' -> peq q q' -> serial2 p q f0 = serial2 p' q' f0).
  { intros p p' q q' Hp Hq. unfold serial2. rewrite (run_peq Hp). destruct (run p' f0). rewrite (run_peq Hq). reflexivity. }
  unfold all_serial_direct. rewrite (explore_peq 40 [pA; pB] [pA'; pB']), (S2 pA pA' pB pB'), (S2 pB pB' pA pA'); repeat constructor; assumption.
Qed.

Definition pairs_of : (algo -> bytes -> bytes) -> list (prog outcome * prog outcome * fs) :=
  ltac:(let t := eval cbv delta [pairs wr warm sA two_committers] in pairs in
        match eval pattern toy_hash in t with ?F _ => exact F end).

Definition triple_eq (t t' : prog outcome * prog outcome * fs) : Prop :=
  peq (fst (fst t)) (fst (fst t')) /\ peq (snd (fst t)) (snd (fst t')) /\ snd t = snd t'.

Lemma pairs_ext h h' : (forall a d, h a d = h' a d) -> Forall2 triple_eq (pairs_of h) (pairs_of h').
Proof.
  intros E. assert (Hpv : forall A (p p' : prog (res A)) g, peq p p' -> peq (pv p g) (pv p' g)) by (intros; apply peq_bind; auto using peq_refl).
  unfold pairs_of. rewrite !(sri_of_ext E), !(delete_ext E), (run_peq (Hpv _ _ _ VSri (write_peq E))).
  repeat apply Forall2_app;
    repeat match goal with |- context [match prep ?k ?d ?f with _ => _ end] => destruct (prep k d f) as [[? ?]|] end;
    repeat (apply Forall2_cons || apply Forall2_nil); repeat split; cbn [fst snd]; auto using peq_refl, commit_peq, write_peq, read_peq, find_peq, ls_peq, write_hash_peq, read_hash_peq.
Qed.

(* the inputs that get hashed: the two keys, the two contents, the text of every record written *)
Definition hashed : list (algo * bytes) :=
  let rec key data now :=
    (Sha256, encode_smeta (smeta_of key (mkWopts None (Some (sri_of toy_hash Sha256 data)) (Some (lenN data)) None None None) now)) in
  [(Sha1, K); (Sha1, K2); (Sha256, DA); (Sha256, DB);
   rec K DA 1; rec K DA 2; rec K DB 2; rec K DB 3; rec K2 DA 2; rec K2 DA 3; rec K2 DB 2;
   (Sha256, encode_smeta (smeta_of K wopts0 2)); (Sha256, encode_smeta (smeta_of K wopts0 3))].

Theorem C07_pairs_serializable :
  forallb (fun t => let '(pA, pB, f0) := t in all_serial pA pB f0) pairs = true.
Proof.
  change pairs with (pairs_of toy_hash).
  apply (forallb_Forall2 triple_eq (fun t => let '(pA, pB, f0) := t in all_serial_direct pA pB f0) _ _ _
                         (pairs_ext (memo toy_fast hashed) toy_hash (fun a d => eq_trans (memo_eq _ _ a d) (eq_sym (toy_fast_eq a d))))).
  - intros [[pA pB] f0] [[pA' pB'] f0'] [HA [HB Hf]] H. cbn [fst snd] in *. subst f0'.
    apply all_serial_direct_sound. rewrite <- (all_serial_direct_peq _ _ _ _ _ HA HB). exact H.
  - vm_compute. reflexivity.
Qed.

(* KNOWN FINDING (KNOWN_FINDINGS.txt), reproduced in the model: a listing that runs during the FIRST write into a fresh
   cache is not serialisable.  Between the creation of index-v5/ and of the first bucket file the listing is empty; run
   before the write it is one error item (no index directory: the repository's own test pins that), after it the entry. *)
Definition first_write : prog outcome := wr K DB 2.
Definition listing : prog outcome := pv (ls toy_hash) VList.
Theorem C07_list_during_first_write_refuted :
  all_serial first_write listing [] = false /\
  (exists L, explore 40 [first_write; listing] [] = Some L /\
             existsb (fun x => match fst x with [Res (Ok (VSri _)); Res (Ok (VList []))] => true | _ => false end) L = true) /\
  fst (run listing []) = Res (Ok (VList [LErr EIoErr])) /\
  match fst (run listing (snd (run first_write []))) with Res (Ok (VList [LMeta _])) => True | _ => False end.
Proof.
  (* the explorer's output is tested where it is computed, not written out as a witness *)
  assert (Ex : forall (o : option (list (list outcome * fs))) p,
            match o with Some L => p L | None => false end = true -> exists L, o = Some L /\ p L = true).
  { intros [L|] p H; [exists L; split; [reflexivity|exact H]|discriminate]. }
  split; [|split; [apply Ex|]]; vm_compute; [reflexivity|reflexivity|]. split; [reflexivity|exact I].
Qed.

(* unfolded: every interleaving of every listed pair ends like one of the two serial orders *)
Theorem C07_pairs_all_interleavings pA pB f0 :
  In (pA, pB, f0) pairs ->
  forall pl' f' rs, preach ([pA; pB], f0) (pl', f') -> results pl' = Some rs -> serial_ok pA pB f0 (rs, f') = true.
Proof.
  intros Hin. apply all_serial_sound. pose proof C07_pairs_serializable as H. rewrite forallb_forall in H. exact (H _ Hin).
Qed.

(* non-vacuity: for the two committers of one key the explorer's output has 252 interleavings and both serial outcomes *)
Example C07_example :
  match pairs with
  | (pA, pB, f0) :: _ =>
      match explore 40 [pA; pB] f0 with
      | Some L => (N.of_nat (List.length L) =? 252) &&
                  existsb (fun x => same_lines (dump toy_hash (snd x)) (dump toy_hash (snd (serial2 pA pB f0)))) L &&
                  existsb (fun x => same_lines (dump toy_hash (snd x)) (dump toy_hash (snd (serial2 pB pA f0)))) L &&
                  negb (same_lines (dump toy_hash (snd (serial2 pA pB f0))) (dump toy_hash (snd (serial2 pB pA f0))))
      | None => false end
  | [] => false end = true.
Proof.
  (* the same test with the two reference dumps named, so that they are computed once and not for every element of [L] *)
  change (match pairs with
          | (pA, pB, f0) :: _ =>
              let d1 := dump toy_hash (snd (serial2 pA pB f0)) in let d2 := dump toy_hash (snd (serial2 pB pA f0)) in
              match explore 40 [pA; pB] f0 with
              | Some L => (N.of_nat (List.length L) =? 252) &&
                          existsb (fun x => same_lines (dump toy_hash (snd x)) d1) L &&
                          existsb (fun x => same_lines (dump toy_hash (snd x)) d2) L && negb (same_lines d1 d2)
              | None => false end
          | [] => false end = true).
  vm_compute. reflexivity.
Qed.

(* non-vacuity of the readers-among-writers theorems: two writers of one key with different contents, a writer of another
   key with the same content as the first, and a remover, on the empty cache, meet every hypothesis *)
Definition ex_ws : list wspec :=
  [mkWs false Sha256 K DA 1; mkWs false Sha1 K DB 2; mkWs false Sha256 K2 DA 3; mkWs true Sha256 K [] 4].
Example C07_readers_hypotheses :
  HashLen toy_hash /\ CacheInv [] /\ Backed toy_hash [] /\ coll_free toy_hash ex_ws /\ coll0 toy_hash ex_ws [] /\
  Forall (fun x => wf_rec toy_hash (hop_rec (x_hop toy_hash x))) ex_ws.
Proof.
  split; [intros a d; vm_compute; discriminate|].
  split; [split; [intros p n H; discriminate|split; [intros p n H; discriminate|left; reflexivity]]|].
  split; [exact (C07_backed_empty toy_hash)|].
  split.
  { intros x y Hx Hy. cbn [ex_ws In] in Hx, Hy.
    destruct Hx as [<-|[<-|[<-|[<-|[]]]]]; destruct Hy as [<-|[<-|[<-|[<-|[]]]]]; intros Hwx Hwy E; try reflexivity; try discriminate;
      vm_compute in E; discriminate. }
  split; [intros x d _ _ H; discriminate|].
  repeat (apply Forall_cons; [apply wf_rec_api; vm_compute; reflexivity|]). apply Forall_nil.
Qed.

Example C07_serializable_hypotheses :
  HInv toy_hash [] (fun _ => None) [] /\ coll0 toy_hash ex_ws [] /\
  forallb (kv_ok toy_hash) (map kv_of ex_ws) = true /\ NoColl toy_hash ([] ++ written (map kv_of ex_ws)).
Proof.
  split; [exact (hinv_empty toy_hash)|]. split; [intros x d _ _ H; discriminate|]. split; [vm_compute; reflexivity|].
  intros a d a' d' H1 H2 E. cbn in H1, H2.
  destruct H1 as [H1|[H1|[H1|[]]]]; destruct H2 as [H2|[H2|[H2|[]]]]; inversion H1; inversion H2; subst; try reflexivity;
    vm_compute in E; discriminate.
Qed.

Print Assumptions C07_explore_complete.
Print Assumptions C07_interleave_invariant.
Print Assumptions C07_conc_content_inv.
Print Assumptions C07_appends_never_splice.
Print Assumptions C07_conc_index_serializable.
Print Assumptions C07_conc_writes_serializable.
Print Assumptions C07_observations_monotone.
Print Assumptions C07_readers_among_writers.
Print Assumptions C07_serializable_with_readers.
Print Assumptions C07_serializable_mixed.
Print Assumptions C07_initial_cache_ok.
Print Assumptions C07_atomic_read_value.
Print Assumptions C07_backed_reachable.
Print Assumptions C07_hop_prog_is_insert.
Print Assumptions C07_pairs_serializable.
Print Assumptions C07_pairs_all_interleavings.
Print Assumptions C07_list_during_first_write_refuted.
