(* C06 — damage to an index file is contained to the damaged records.
   [hash] is universally quantified: the theorems hold for every hash function.  The file [f] is an arbitrary
   byte string: this is the whole damage space. *)
From CC Require Import Bytes Utf8 Lines Sri Record RecordP.

Section C06.
Variable hash : algo -> bytes -> bytes.

(* validity is decided line by line; nothing carries over from one line to the next *)
Theorem C06_entries_per_line f : entries hash f = flat_map (contrib hash) (lines f).
Proof. reflexivity. Qed.

(* replacing the bytes of one (terminated) line by any newline-free bytes changes only that line's
   contribution: the records before and after it stay effective *)
Theorem C06_damage_local a l l' b :
  no_nl l -> no_nl l' ->
  exists pre post,
    entries hash (a ++ nl :: l ++ nl :: b) = pre ++ contrib hash (strip_cr l) ++ post /\
    entries hash (a ++ nl :: l' ++ nl :: b) = pre ++ contrib hash (strip_cr l') ++ post.
Proof. exact (damage_local hash a l l' b). Qed.

(* destroying a separating newline fuses, and thereby replaces, exactly the two adjacent records *)
Theorem C06_newline_fusion a l1 l2 b :
  no_nl l1 -> no_nl l2 ->
  exists pre post,
    entries hash (a ++ nl :: l1 ++ nl :: l2 ++ nl :: b)
      = pre ++ contrib hash (strip_cr l1) ++ contrib hash (strip_cr l2) ++ post /\
    entries hash (a ++ nl :: (l1 ++ l2) ++ nl :: b)
      = pre ++ contrib hash (strip_cr (l1 ++ l2)) ++ post.
Proof. exact (newline_fusion hash a l1 l2 b). Qed.

(* a record appended after arbitrary earlier bytes (a torn tail included) is effective, and the
   earlier contributions are untouched, provided the file does not end in a pending CR *)
Theorem C06_entries_app_line f line :
  no_nl line -> no_pending_cr f ->
  entries hash (f ++ nl :: line) = entries hash f ++ contrib hash line.
Proof. exact (entries_app_line hash f line). Qed.

(* no entry is fabricated: whatever the reader returns is the decoding of a checksum-valid,
   UTF-8-valid line that is literally present in the file *)
Theorem C06_no_fabrication f m :
  In m (entries hash f) ->
  exists line h text,
    In line (lines f) /\ valid_utf8 line = true /\
    line = h ++ tab :: text /\ h = hash_entry hash text /\ parse_smeta text = Some m.
Proof. exact (no_fabrication hash f m). Qed.

End C06.

Check (C06_entries_per_line : forall hash f, entries hash f = flat_map (contrib hash) (lines f)).
Check (C06_entries_app_line : forall hash f line, no_nl line -> no_pending_cr f ->
         entries hash (f ++ nl :: line) = entries hash f ++ contrib hash line).

(* non-vacuity: a concrete damaged bucket under a toy hash *)
Definition toy_hash (a : algo) (d : bytes) : bytes := [n2b (N.modulo (lenN d) 256); x01].
Example C06_damage_example :
  let text := bs "{""key"":""k"",""integrity"":null,""time"":1,""size"":2,""metadata"":null,""raw_metadata"":null}" in
  let good := record_line toy_hash text in
  List.length (entries toy_hash (bs "junk" ++ nl :: good ++ nl :: [xff; xfe] ++ nl :: good)) = 2%nat
  /\ no_nl good.
Proof. split; [vm_compute; reflexivity|]. intros b Hb. vm_compute in Hb.
  repeat (destruct Hb as [<-|Hb]; [reflexivity|]). destruct Hb. Qed.

Print Assumptions C06_entries_per_line.
Print Assumptions C06_damage_local.
Print Assumptions C06_newline_fusion.
Print Assumptions C06_entries_app_line.
Print Assumptions C06_no_fabrication.
