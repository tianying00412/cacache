(* C12 — sync, async-std and tokio flavours are observationally equivalent.
   The model has ONE program per entry point and a flavour parameter exactly where the Rust sources differ by text:
   (a) the size handed to the content writer (keyed async writers never memory-map), (b) the options of the one-shot
   keyed writes (write_sync declares no size, async write declares the length).  The theorems say these differences
   are unobservable.  async-std vs tokio: no source-level difference beyond the runtime library, hence no model-level
   difference; their equivalence is carried by the correspondence (each of the three binaries must match this one
   deterministic model on the same programs, pure and mixed-flavour). *)
From CC Require Import Bytes Sri Prog Api Sess IndexP WriteP CommitP FlavourP HashExtP.

Section C12.
Variable hash : algo -> bytes -> bytes.

(* every operation except keyed writes: one step function for all flavours, on every session state (any tree, any
   open handles) — reads, extractions, removals, listing, index access, by-address writes *)
Theorem C12_step_flavour_blind s o now fl :
  fl_sensitive o = false -> step hash s (reflavour fl o) now = step hash s o now.
Proof. exact (step_flavour_blind hash s o now fl). Qed.

(* keyed one-shot write: identical result and identical tree, from EVERY tree (damaged ones included) *)
Theorem C12_write_flavour a key data now f :
  run (write hash Async a key data now) f = run (write hash Sync a key data now) f.
Proof. exact (write_flavour hash a key data now f). Qed.

Theorem C12_write_hash_flavour fl fl' a d : write_hash hash fl a d = write_hash hash fl' a d.
Proof. exact (write_hash_flavour hash fl fl' a d). Qed.

(* keyed streamed writers (mapped vs plain temp file): same answer, same lookup for every key, same bytes read back *)
Theorem C12_stream_keyed_flavour (HL : HashLen hash) f key o cs now :
  CacheInv f -> o_sri o = None -> size_ok o (lenN (List.concat cs)) = true ->
  let data := List.concat cs in
  wf_rec hash (smeta_of key (commit_opts o (sri_of hash (algo_of o) data) (lenN data)) now) ->
  let fS := snd (run (stream_write hash Sync (Some key) o cs now) f) in
  let fA := snd (run (stream_write hash Async (Some key) o cs now) f) in
  fst (run (stream_write hash Sync (Some key) o cs now) f) = fst (run (stream_write hash Async (Some key) o cs now) f) /\
  (forall k, abs_idx hash fS k = abs_idx hash fA k) /\
  run (read hash key) fS = (Ok data, fS) /\ run (read hash key) fA = (Ok data, fA) /\
  CacheInv fS /\ CacheInv fA.
Proof. exact (stream_keyed_flavour hash HL f key o cs now). Qed.

(* whole sessions: ANY assignment of the sync / async entry points to the calls of a session (every operation kind,
   damage steps in between included; the one exception is opening a keyed streamed writer, covered by the theorem above)
   gives the same answer at every step and the same final state *)
Theorem C12_sessions_any_flavour (g : op -> flavour) ops s i :
  forallb fl_free ops = true -> run_ops hash s (map (fun o => reflavour (g o) o) ops) i = run_ops hash s ops i.
Proof. exact (run_ops_any_flavour hash g ops s i). Qed.

End C12.

Definition toy_hash (a : algo) (d : bytes) : bytes :=
  [n2b (N.modulo (lenN d) 251); n2b (N.modulo (fold_left (fun acc b => acc * 31 + b2n b)%N d 7%N) 256); x01].
(* non-vacuity: a mapped sync writer and a plain async writer, three chunks, leave the same tree *)
Example C12_example :
  let o := mkWopts (Some Sha1) None (Some 5%N) None None None in
  snd (run (stream_write toy_hash Sync (Some (bs "k")) o [bs "ab"; []; bs "cde"] 9%N) [])
  = snd (run (stream_write toy_hash Async (Some (bs "k")) o [bs "ab"; []; bs "cde"] 9%N) []).
Proof.
  generalize toy_hash, (toy_fast_eq : forall a d, toy_hash a d = toy_fast a d). intros h E o.
  rewrite !(run_peq (stream_write_peq E)). revert o. vm_compute. reflexivity.
Qed.

Print Assumptions C12_step_flavour_blind.
Print Assumptions C12_write_flavour.
Print Assumptions C12_write_hash_flavour.
Print Assumptions C12_stream_keyed_flavour.
Print Assumptions C12_sessions_any_flavour.
