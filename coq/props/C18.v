(* C18 — extraction to a path delivers exact bytes; failed checks leave nothing behind.
   Arbitrary tree [f] (all damage classes), arbitrary destination state, arbitrary [hash]. *)
From CC Require Import Bytes Sri Fs Prog Api ReadP WriteP HistP.

Section C18.
Variable hash : algo -> bytes -> bytes.

(* success of an unchecked extraction: the destination holds exactly the stored bytes (copy: and the
   returned count is their length); a hard link needs a fresh destination *)
Theorem C18_extract_unchecked_exact f x i dst n :
  fst (run (extract_hash hash x false i dst) f) = Ok n ->
  exists cp, content_path i = Some cp /\
    match x with
    | XCopy => exists d, resolve f (InCache cp) = Some (File d) /\ n = lenN d /\
                         snd (run (extract_hash hash x false i dst) f) = update f dst (File d)
    | XHardLink => exists nd, lookup f (InCache cp) = Some nd /\ lookup f dst = None /\
                              snd (run (extract_hash hash x false i dst) f) = update f dst nd
    | XReflink => False
    end.
Proof. exact (extract_hash_unchecked hash f x i dst n). Qed.

(* success of a checked extraction: the same, and the bytes were verified *)
Theorem C18_extract_checked_exact f x i dst :
  forall n, fst (run (extract_hash hash x true i dst) f) = Ok n ->
    exists cp d, content_path i = Some cp /\ resolve f (InCache cp) = Some (File d) /\ digest_ok hash i d /\ n = lenN d /\
      match x with
      | XCopy => snd (run (extract_hash hash x true i dst) f) = update f dst (File d)
      | XHardLink => exists nd, lookup f (InCache cp) = Some nd /\ lookup f dst = None /\
                                snd (run (extract_hash hash x true i dst) f) = update f dst nd
      | XReflink => False
      end.
Proof. exact (extract_hash_checked hash f x i dst). Qed.

(* a checked extraction that fails verification leaves the whole tree as it was: no file holding the
   unverified bytes appears at the destination, an existing destination is not replaced *)
Theorem C18_checked_fail_leaves_nothing f x i dst :
  fst (run (extract_hash hash x true i dst) f) = Err EIntegrity ->
  snd (run (extract_hash hash x true i dst) f) = f.
Proof. intros H. exact (extract_hash_checked_fail hash f x i dst EIntegrity H eq_refl). Qed.

(* missing key: the not-found error, nothing touched *)
Theorem C18_missing_key f x checked key dst :
  fst (run (find hash key) f) = Ok None ->
  run (extract hash x checked key dst) f = (Err ENotFound, f).
Proof. exact (extract_missing_key hash f x checked key dst). Qed.

(* missing content: an I/O error, nothing touched *)
Theorem C18_missing_content f x checked i dst cp :
  content_path i = Some cp -> resolve f (InCache cp) = None -> lookup f (InCache cp) = None ->
  run (extract_hash hash x checked i dst) f = (Err EIoErr, f).
Proof. exact (extract_missing_content hash f x checked i dst cp). Qed.

(* the positive direction, after any history (HistP.v): a checked copy of a key whose content is stored succeeds, returns
   the length, and leaves exactly the last data written under the key at the destination; a key the history's map does not
   hold is "not found" and nothing is touched *)
Theorem C18_copy_after_history (h : list cop) k e :
  HashLen hash ->
  forallb (c_ok hash) h = true -> NoColl hash (c_all (fold_left (c_step hash) h cspec0)) ->
  let f := fold_left (c_run hash) h [] in let s := fold_left (c_step hash) h cspec0 in
  lookup f (Ext e) <> Some Dir ->
  match c_map s k with
  | Some (a, d) => memb (a, d) (c_stored s) = true ->
                   run (extract hash XCopy true k (Ext e)) f = (Ok (lenN d), update f (Ext e) (File d))
  | None => run (extract hash XCopy true k (Ext e)) f = (Err ENotFound, f)
  end.
Proof.
  intros HL Hok Hnc f s Hd. exact (cinv_copy hash HL f s k e (chistory_refines hash HL h [] cspec0 (cinv_empty hash) Hok Hnc) Hd).
Qed.

End C18.

Check (C18_checked_fail_leaves_nothing : forall hash f x i dst,
  fst (run (extract_hash hash x true i dst) f) = Err EIntegrity ->
  snd (run (extract_hash hash x true i dst) f) = f).

Definition toy_hash (a : algo) (d : bytes) : bytes :=
  [n2b (N.modulo (lenN d) 251); n2b (N.modulo (fold_left (fun acc b => acc * 31 + b2n b)%N d 7%N) 256); x01].
Example C18_example :
  let i := sri_of toy_hash Sha1 (bs "data") in
  match content_path i with
  | Some cp =>
      run (extract_hash toy_hash XHardLink true i (Ext (bs "out"))) [(InCache cp, File (bs "dat!"))]
        = (Err EIntegrity, [(InCache cp, File (bs "dat!"))]) /\
      fst (run (extract_hash toy_hash XCopy true i (Ext (bs "out"))) [(InCache cp, File (bs "data"))]) = Ok 4%N
  | None => False
  end.
Proof. vm_compute. split; reflexivity. Qed.

Print Assumptions C18_extract_unchecked_exact.
Print Assumptions C18_extract_checked_exact.
Print Assumptions C18_checked_fail_leaves_nothing.
Print Assumptions C18_missing_key.
Print Assumptions C18_missing_content.
Print Assumptions C18_copy_after_history.
