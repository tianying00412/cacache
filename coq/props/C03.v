(* C03 — content files appear atomically: never partial, always matching their address.
   [crash_states p f] (theories/Crash.v) lists the tree a killed process leaves behind: every step boundary of the
   run, plus every intermediate state of steps the kernel performs piecemeal (a data write torn at EVERY byte
   length, a store through the mapping cut at every length, a recursive mkdir stopped after any number of
   directories, a copy stopped at any length).  [ContentInv] = every regular file anywhere under content-v2 carries
   the digest of its path.  Theorems: ContentInv holds at every crash state of every write (any chunking, keyed or
   by address, mapped or plain temp file, any options, cold or warm cache, address already present or not) and of
   every other API program on ANY tree.  The reason is visible in the proof: the only step of any program that
   puts a file under content-v2 is the rename of the writer's temp file, issued when that file holds exactly the
   bytes that were hashed ([write_step_csafe], [close_writer_csafe]); incomplete data lives only in tmp/.
   Over histories (SessP.v): after ANY sequence of API calls on one cache — several writers open at once, their chunks
   interleaved, writes cancelled while in flight (OAbandon), writers dropped or committed in any order — the invariant
   holds, every open writer's temp file holds exactly the bytes its digest covers, and a kill during the next call
   leaves only matching content files ([clear] under open writers, link_to and damage steps excluded).
   Modelled, not verified: atomicity of rename(2); posix_fallocate and remove_dir_all as single steps. *)
From CC Require Import Bytes Sri Fs Prog Api Crash ProgP WriteP CommitP StepsP CrashP Sess SessP.

Section C03.
Variable hash : algo -> bytes -> bytes.
Hypothesis HL : HashLen hash.

Theorem C03_stream_write_crash f fl key o cs now :
  CacheInv f -> ContentInv hash f ->
  Forall (ContentInv hash) (crash_states (stream_write hash fl key o cs now) f) /\
  ContentInv hash (snd (run (stream_write hash fl key o cs now) f)).
Proof. intros _. exact (stream_write_crash hash HL f fl key o cs now). Qed.

Theorem C03_write_crash f fl a key data now :
  CacheInv f -> ContentInv hash f ->
  Forall (ContentInv hash) (crash_states (write hash fl a key data now) f) /\
  ContentInv hash (snd (run (write hash fl a key data now) f)).
Proof. intros _. exact (oneshot_crash hash HL f fl (Some key) (write_opts fl a data) data now). Qed.

Theorem C03_write_hash_crash f fl a data :
  CacheInv f -> ContentInv hash f ->
  Forall (ContentInv hash) (crash_states (write_hash hash fl a data) f) /\
  ContentInv hash (snd (run (write_hash hash fl a data) f)).
Proof. intros _. exact (oneshot_crash hash HL f fl None _ data 0%N). Qed.

(* the general principle: a run all of whose steps are content-safe keeps the invariant at every crash state *)
Theorem C03_content_inv_crash {A} (p : prog A) f :
  ContentInv hash f -> steps_ok (csafe hash) p f ->
  Forall (ContentInv hash) (crash_states p f) /\ ContentInv hash (snd (run p f)).
Proof. exact (content_inv_crash hash p f). Qed.

(* the rename that publishes content is issued only when the temp file holds exactly the hashed bytes *)
Theorem C03_close_writer_steps f w : WInv f w -> steps_ok (csafe hash) (close_writer hash w) f.
Proof. exact (close_writer_csafe hash HL f w). Qed.

(* every other entry point, on ANY tree: no step writes a file under content-v2 *)
Theorem C03_other_ops key i x checked dst now o f :
  ~ is_content dst -> ContentInv hash f ->
  Forall (ContentInv hash) (crash_states (insert hash key o now) f) /\
  Forall (ContentInv hash) (crash_states (find hash key) f) /\
  Forall (ContentInv hash) (crash_states (read_hash hash i) f) /\
  Forall (ContentInv hash) (crash_states (extract_hash hash x checked i dst) f) /\
  Forall (ContentInv hash) (crash_states (remove_hash i) f) /\
  Forall (ContentInv hash) (crash_states (remove_fully hash key) f).
Proof.
  intros Hd Hc. repeat split; apply (other_ops_crash hash); try exact Hc.
  - exact (all_steps_impl _ _ _ (index_step_csafe' hash key) (insert_steps hash key o now)).
  - exact (all_steps_impl _ _ _ read_step_csafe' (find_reads hash key)).
  - exact (all_steps_impl _ _ _ read_step_csafe' (read_hash_reads hash i)).
  - exact (all_steps_impl _ _ _ (fun c => extract_step_csafe' dst c Hd) (extract_hash_steps hash x checked i dst)).
  - exact (all_steps_impl _ _ _ remove_step_csafe' (remove_hash_steps i)).
  - exact (all_steps_impl _ _ _ remove_step_csafe' (remove_fully_steps hash key)).
Qed.

(* every reachable state of every session, and every crash state of the next call *)
Theorem C03_sessions ops o i :
  Forall sess_op ops -> sess_op o ->
  SInv hash (snd (run_ops hash sstate0 ops 0)) /\
  Forall (ContentInv hash) (step_crash hash (snd (run_ops hash sstate0 ops 0)) o i).
Proof.
  intros H1 H2. split; [exact (run_ops_sinv hash HL ops sstate0 0 (sinv_init hash) H1)|exact (session_crash_content hash HL ops o i H1 H2)].
Qed.

(* what the session invariant says *)
Theorem C03_sinv_meaning s :
  SInv hash s ->
  ContentInv hash (s_fs s) /\
  (forall h ws, hget h (s_w s) = Some ws -> exists d, lookup (s_fs s) (w_tmp ws) = Some (File d) /\
     match w_map ws with Some sz => takeN (w_pos ws) d = w_data ws | None => d = w_data ws end).
Proof.
  intros [Hc [Hw _]]. split; [exact Hc|]. intros h ws Hh. destruct (Hw h ws Hh) as [_ [d [Hl Hm]]]. exists d. split; [exact Hl|].
  destruct (w_map ws); [exact (proj1 (proj2 (proj2 Hm)))|exact Hm].
Qed.

End C03.

(* non-vacuity: the crash states of a mapped two-chunk write on the empty tree, all satisfying the invariant's
   premise; one of them shows partial data — in tmp/ only *)
Definition toy_hash (a : algo) (d : bytes) : bytes :=
  [n2b (N.modulo (lenN d) 251); n2b (N.modulo (fold_left (fun acc b => acc * 31 + b2n b)%N d 7%N) 256); x01].
Example C03_empty : ContentInv toy_hash [].
Proof. intros p d H. discriminate. Qed.
Example C03_example :
  let o := mkWopts (Some Sha1) None (Some 4%N) None None None in
  let cs := crash_states (stream_write toy_hash Sync (Some (bs "k")) o [bs "ab"; bs "cd"] 9%N) [] in
  (List.length cs = 117)%nat /\
  existsb (fun g => match lookup g (InCache [bs "tmp"; [x54]]) with Some (File d) => bytes_eqb d [x61; x00; x00; x00] | _ => false end) cs = true.
Proof. vm_compute. split; reflexivity. Qed.

(* non-vacuity of the session theorem: two writers open at once, chunks interleaved, one write cancelled while in flight,
   one writer dropped, the other committed; the crash states of the commit (several) are covered *)
Example C03_example_session :
  let ops := [OOpen Async 1%N (Some (bs "k")) (mkWopts (Some Sha1) None None None None None);
              OOpen Sync 2%N None (mkWopts None None (Some 8%N) None None None);
              OChunk 1%N (bs "ab"); OAbandon 1%N (bs "cdef"); OChunk 2%N (bs "xy"); OWrite1 1%N (bs "g");
              OWrite Sync Sha256 (bs "other") (bs "data"); ODrop 2%N] in
  Forall sess_op ops /\ sess_op (OCommit 1%N) /\
  (1 < List.length (step_crash toy_hash (snd (run_ops toy_hash sstate0 ops 0)) (OCommit 1%N) 9%N))%nat /\
  match hget 1%N (s_w (snd (run_ops toy_hash sstate0 ops 0))) with Some ws => w_data ws = bs "abcdefg" | None => False end.
Proof. vm_compute. repeat split; repeat constructor. Qed.

Print Assumptions C03_stream_write_crash.
Print Assumptions C03_write_crash.
Print Assumptions C03_write_hash_crash.
Print Assumptions C03_content_inv_crash.
Print Assumptions C03_close_writer_steps.
Print Assumptions C03_other_ops.
Print Assumptions C03_sessions.
Print Assumptions C03_sinv_meaning.
