(* C10 — listing yields exactly the live entries, once each, agreeing with lookup.
   Per bucket, for arbitrary record lists (hence arbitrary bucket bytes via [entries]); and for the whole cache: the
   listing program (walk of index-v5, every bucket read and reduced) returns exactly the entries that lookups find, for
   every tree with a well-shaped index area in which every record sits in the bucket of its key (what the API produces;
   a record planted by hand in a foreign bucket is listed but not found: outside the property's histories). *)
From CC Require Import Bytes Sri Record Fs Prog Api RecordP IndexP WriteP RemoveP LsWholeP HistP LsHistP
  HashExtP.

Section C10.
Variable hash : algo -> bytes -> bytes.

(* an entry is listed iff looking its key up finds exactly that entry *)
Theorem C10_ls_iff_find es m : In m (ls_entries es) <-> find_in (m_key m) es = Some m.
Proof. exact (ls_iff_find es m). Qed.

(* whatever a lookup finds is listed, field for field *)
Theorem C10_find_listed key es m : find_in key es = Some m -> In m (ls_entries es).
Proof. exact (find_listed key es m). Qed.

(* each key is listed at most once *)
Theorem C10_ls_keys_nodup es : NoDup (map m_key (ls_entries es)).
Proof. exact (ls_keys_nodup es). Qed.

(* the same on the bytes of a bucket file, whatever they are *)
Theorem C10_bucket_bytes f m : In m (ls_bytes hash f) <-> find_bytes hash (m_key m) f = Some m.
Proof. exact (ls_iff_find (entries hash f) m). Qed.

Theorem C10_ls_whole f :
  NoDupKeys f -> IndexInv f -> NoDeep f -> BucketPlacement hash f -> is_dir f [index_dir] = true ->
  exists items, run (ls hash) f = (Ok items, f) /\
    (forall it, In it items -> exists m, it = LMeta m) /\
    (forall m, In (LMeta m) items <-> abs_idx hash f (m_key m) = Some m).
Proof. exact (ls_whole hash f). Qed.

Theorem C10_ls_fresh f : is_dir f [index_dir] = false -> run (ls hash) f = (Ok [LErr EIoErr], f).
Proof. exact (ls_fresh hash f). Qed.

(* over histories (LsHistP.v): the shape hypotheses of [C10_ls_whole] hold in every state any history reaches, so after ANY
   sequence of keyed writes (one-shot, streamed), writes by address, key removals and removals of content from the empty
   cache — at least one of them touching the index — the listing succeeds, yields entries only, lists a key iff the
   specification map holds it (so: iff a lookup finds it), with the entry the lookup finds *)
Theorem C10_listing_after_history (h : list cop) :
  HashLen hash ->
  forallb (c_ok hash) h = true -> NoColl hash (c_all (fold_left (c_step hash) h cspec0)) -> existsb c_indexes h = true ->
  let f := fold_left (c_run hash) h [] in let s := fold_left (c_step hash) h cspec0 in
  exists items, run (ls hash) f = (Ok items, f) /\
    (forall it, In it items -> exists m, it = LMeta m) /\
    (forall m, In (LMeta m) items <-> abs_idx hash f (m_key m) = Some m) /\
    (forall k, (exists m, In (LMeta m) items /\ m_key m = k) <-> c_map s k <> None) /\
    (forall m a d, In (LMeta m) items -> c_map s (m_key m) = Some (a, d) -> m_sri m = sri_of hash a d).
Proof. intros HL. exact (listing_after_history hash HL h). Qed.

(* the shape invariants themselves are invariants of every history *)
Theorem C10_shape_reachable (h : list cop) f0 s0 :
  HashLen hash ->
  CInv hash f0 s0 -> LInv hash f0 -> forallb (c_ok hash) h = true -> NoColl hash (c_all (fold_left (c_step hash) h s0)) ->
  LInv hash (fold_left (c_run hash) h f0).
Proof. intros HL H0 Hl Hok Hnc. exact (proj1 (proj2 (lhistory hash HL h f0 s0 H0 Hl Hok Hnc))). Qed.

End C10.

(* non-vacuity: three writes and a removal over two keys; the listing is exactly the one live entry *)
Definition toy_hash (a : algo) (d : bytes) : bytes :=
  [n2b (N.modulo (lenN d) 251); n2b (N.modulo (fold_left (fun acc b => acc * 31 + b2n b)%N d 7%N) 256); x01].
Example C10_example :
  let f := snd (run (delete toy_hash (bs "a") 4%N)
            (snd (run (write toy_hash Sync Sha256 (bs "b") (bs "y") 3%N)
              (snd (run (write toy_hash Sync Sha256 (bs "a") (bs "x2") 2%N)
                (snd (run (write toy_hash Sync Sha256 (bs "a") (bs "x") 1%N) []))))))) in
  match fst (run (ls toy_hash) f) with
  | Ok [LMeta m] => bytes_eqb (m_key m) (bs "b") && N.eqb (m_size m) 1
  | _ => false end = true /\ is_dir f [index_dir] = true.
Proof.
  rewrite (delete_ext toy_fast_eq), !(run_peq (write_peq toy_fast_eq)).
  intros f. rewrite (run_peq (ls_peq toy_fast_eq)). revert f.
  vm_compute. split; reflexivity.
Qed.

Check (C10_ls_iff_find : forall es m, In m (ls_entries es) <-> find_in (m_key m) es = Some m).
Check (C10_ls_keys_nodup : forall es, NoDup (map m_key (ls_entries es))).

Print Assumptions C10_ls_iff_find.
Print Assumptions C10_find_listed.
Print Assumptions C10_ls_keys_nodup.
Print Assumptions C10_bucket_bytes.
Print Assumptions C10_ls_whole.
Print Assumptions C10_ls_fresh.
(* non-vacuity of the history theorem: its premises hold of a concrete history, and the listing of the final tree is
   exactly the two live keys *)
Example C10_history_example :
  let h := [CWrite Sync Sha256 (bs "k1") (bs "same") 1%N; CStream Async (bs "k2") (mkWopts (Some Sha256) None None None None None) [bs "sa"; bs "me"] 2%N;
            CWriteHash Sync Sha1 (bs "other"); CRemoveHash Sha256 (bs "same"); CWrite Sync Sha1 (bs "k1") (bs "new") 5%N;
            CWrite Sync Sha1 (bs "k3") (bs "x") 6%N; CRemove (bs "k3") 7%N] in
  forallb (c_ok toy_hash) h = true /\ NoColl toy_hash (c_all (fold_left (c_step toy_hash) h cspec0)) /\ existsb c_indexes h = true /\
  match fst (run (ls toy_hash) (fold_left (c_run toy_hash) h [])) with
  | Ok items => map (fun it => match it with LMeta m => m_key m | LErr _ => [] end) items = [bs "k2"; bs "k1"] \/
                map (fun it => match it with LMeta m => m_key m | LErr _ => [] end) items = [bs "k1"; bs "k2"]
  | _ => False end.
Proof.
  split; [vm_compute; reflexivity|]. split; [|split; [vm_compute; reflexivity|]].
  2: { lazy beta iota delta [fold_left c_run].
       rewrite (delete_ext toy_fast_eq), !(run_peq (write_peq toy_fast_eq)), (run_peq (stream_write_peq toy_fast_eq)),
         (run_peq (write_hash_peq toy_fast_eq)), (run_peq (ls_peq toy_fast_eq)).
       vm_compute. auto. }
  intros a d a' d' H1 H2 Hc. cbn in H1, H2.
  repeat (destruct H1 as [H1|H1]; [inversion H1; subst; clear H1|]); try contradiction;
    repeat (destruct H2 as [H2|H2]; [inversion H2; subst; clear H2|]); try contradiction; try reflexivity; vm_compute in Hc; discriminate.
Qed.
Print Assumptions C10_listing_after_history.
Print Assumptions C10_shape_reachable.
