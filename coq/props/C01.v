(* C01 — checked reads never deliver bytes that differ from what was stored.
   The tree [f] is ARBITRARY (any finite map from locations to files, directories, symlinks): this covers
   every damage pattern at once — bit flips, truncation, extension, replacement, swapped files, symlink
   substitution.  [hash] is arbitrary too. *)
From CC Require Import Bytes Sri Record Fs Prog Api ReadP SriP.

Section C01.
Variable hash : algo -> bytes -> bytes.

(* whole read by address: success delivers bytes carrying the requested digest, and mutates nothing *)
Theorem C01_read_hash_sound f i :
  snd (run (read_hash hash i) f) = f /\
  forall d, fst (run (read_hash hash i) f) = Ok d ->
    digest_ok hash i d /\ exists cp, content_path i = Some cp /\ resolve f (InCache cp) = Some (File d).
Proof. exact (read_hash_sound hash f i). Qed.

(* whole read by key: the bytes carry the digest of the entry the lookup found *)
Theorem C01_read_sound f key :
  snd (run (read hash key) f) = f /\
  forall d, fst (run (read hash key) f) = Ok d ->
    exists m, fst (run (find hash key) f) = Ok (Some m) /\ digest_ok hash (m_sri m) d.
Proof. exact (read_sound hash f key). Qed.

(* streamed read finished by its check, for every sequence of buffer sizes *)
Theorem C01_reader_sound f i ns r :
  fst (run (ropen_hash i) f) = Ok r ->
  forall a, rcheck hash (snd (rchunks r ns)) = Ok a -> digest_ok hash i (List.concat (fst (rchunks r ns))).
Proof. exact (reader_sound hash f i ns r). Qed.

(* checked copy / hard link / reflink: what lands at the destination carries the digest *)
Theorem C01_extract_checked_sound f x i dst :
  forall n, fst (run (extract_hash hash x true i dst) f) = Ok n ->
    exists cp d, content_path i = Some cp /\ resolve f (InCache cp) = Some (File d) /\ digest_ok hash i d /\ n = lenN d /\
      match x with
      | XCopy => snd (run (extract_hash hash x true i dst) f) = update f dst (File d)
      | XHardLink => exists nd, lookup f (InCache cp) = Some nd /\ lookup f dst = None /\
                                snd (run (extract_hash hash x true i dst) f) = update f dst nd
      | XReflink => False
      end.
Proof. exact (extract_hash_checked hash f x i dst). Qed.

(* "carries the digest" means "is the stored data" unless the hash function collides on the two:
   the honest residue — no theorem can exclude a SHA collision *)
Theorem C01_checked_exact a stored got :
  digest_ok hash (sri_of hash a stored) got ->
  (hash a got = hash a stored -> got = stored) ->          (* CollisionFree on {got, stored} *)
  got = stored.
Proof. intros H Hcf. apply Hcf. apply (sri_check_computed hash a stored got). exact H. Qed.

End C01.

Check (C01_read_hash_sound : forall hash f i,
  snd (run (read_hash hash i) f) = f /\
  forall d, fst (run (read_hash hash i) f) = Ok d ->
    digest_ok hash i d /\ exists cp, content_path i = Some cp /\ resolve f (InCache cp) = Some (File d)).

(* non-vacuity: a damaged tree where the read fails, an intact one where it succeeds *)
Definition toy_hash (a : algo) (d : bytes) : bytes :=
  [n2b (N.modulo (lenN d) 251); n2b (N.modulo (fold_left (fun acc b => acc * 31 + b2n b)%N d 7%N) 256); x01].
Example C01_example :
  let i := sri_of toy_hash Sha256 (bs "hello") in
  match content_path i with
  | Some cp =>
      fst (run (read_hash toy_hash i) [(InCache cp, File (bs "hello"))]) = Ok (bs "hello") /\
      fst (run (read_hash toy_hash i) [(InCache cp, File (bs "hellp"))]) = Err EIntegrity /\
      fst (run (read_hash toy_hash i) [(InCache cp, Symlink (LAbs (bs "t"))); (Ext (bs "t"), File (bs "hel"))]) = Err EIntegrity
  | None => False
  end.
Proof. vm_compute. repeat split; reflexivity. Qed.

Print Assumptions C01_read_hash_sound.
Print Assumptions C01_read_sound.
Print Assumptions C01_reader_sound.
Print Assumptions C01_extract_checked_sound.
Print Assumptions C01_checked_exact.
