(* C05 — a key lookup returns the most recent committed entry, or absent after removal.
   Histories of index inserts and removals, run as the library's own step programs on the abstract
   filesystem, refine the map  key |-> entry.  No collision hypothesis: [hash] is arbitrary, so two keys
   whose SHA-1 coincide share a bucket inside this theorem.  [wf_hop] asks that the codec handles the
   written records faithfully (round trip, no control bytes, UTF-8) — discharged for API-written records
   by the codec theorems of C11. *)
From CC Require Import Bytes Json Sri Fs Prog Api IndexP MetaP HashExtP.

Section C05.
Variable hash : algo -> bytes -> bytes.

Theorem C05_find_refines_map (h : list hop) f0 :
  IndexInv f0 -> Forall (wf_hop hash) h ->
  IndexInv (fold_left (exec_hop hash) h f0) /\
  (forall k, run (find hash k) (fold_left (exec_hop hash) h f0)
             = (Ok (fold_left spec_step h (abs_idx hash f0) k), fold_left (exec_hop hash) h f0)).
Proof. exact (find_refines_map hash h f0). Qed.

(* the abstract map: the last write to a key wins, other keys are untouched; a removal clears *)
Theorem C05_last_write_wins h s key o now k :
  fold_left spec_step (h ++ [HIns key o now]) s k
  = if bytes_eqb k key then new_entry key o now else fold_left spec_step h s k.
Proof. exact (spec_last_write_wins h s key o now k). Qed.

Theorem C05_removed_absent h s key now k :
  fold_left spec_step (h ++ [HDel key now]) s k = if bytes_eqb k key then None else fold_left spec_step h s k.
Proof. exact (spec_removed_absent h s key now k). Qed.

(* one step, for any tree with a well-shaped index area: every other location of the tree is untouched *)
Theorem C05_insert_frame f key o now :
  IndexInv f -> wf_rec hash (smeta_of key o now) -> wf_sri_opt o ->
  IndexInv (snd (run (insert hash key o now) f)) /\
  fst (run (insert hash key o now) f) = Ok (match o_sri o with Some i => i | None => deadbeef end) /\
  (forall k, abs_idx hash (snd (run (insert hash key o now) f)) k
             = if bytes_eqb k key then new_entry key o now else abs_idx hash f k) /\
  (forall l, (forall p, l <> InCache (index_dir :: p)) ->
             lookup (snd (run (insert hash key o now) f)) l = lookup f l).
Proof. exact (insert_abs hash f key o now). Qed.

(* the same with every hypothesis decidable (the codec round trip is a theorem: C11): keys valid UTF-8, timestamps < 2^128,
   sizes < 2^64, metadata in serde_json normal form, integrities addressable *)
Theorem C05_find_refines_map_closed (h : list hop) f0 :
  IndexInv f0 -> forallb hop_ok h = true ->
  IndexInv (fold_left (exec_hop hash) h f0) /\
  (forall k, run (find hash k) (fold_left (exec_hop hash) h f0)
             = (Ok (fold_left spec_step h (abs_idx hash f0) k), fold_left (exec_hop hash) h f0)).
Proof. exact (find_refines_map_closed hash h f0). Qed.

End C05.

(* non-vacuity: the hypotheses are met by a concrete history on the empty tree, and the theorem's
   conclusion can be observed by running the model *)
Definition toy_hash (a : algo) (d : bytes) : bytes :=
  [n2b (N.modulo (lenN d) 251); n2b (N.modulo (fold_left (fun acc b => acc * 31 + b2n b)%N d 7%N) 256); x01].
Definition ex_opts : wopts :=
  mkWopts None (Some [mkHash Sha256 (bs "AAECAw==")]) (Some 4%N) (Some 77%N) (Some (JArr [JInt 1; JStr (bs "x")])) None.

Example C05_example_inv : IndexInv [].
Proof. intros p n H. discriminate. Qed.

Example C05_example_hop_ok : forallb hop_ok [HIns (bs "a") ex_opts 5%N; HDel (bs "a") 6%N; HIns (bs "b") ex_opts 7%N] = true.
Proof. vm_compute. reflexivity. Qed.

Example C05_example_wf : Forall (wf_hop toy_hash) [HIns (bs "a") ex_opts 5%N; HDel (bs "a") 6%N; HIns (bs "b") ex_opts 7%N].
Proof. apply Forall_forall. intros x Hx. exact (hop_ok_wf toy_hash x (proj1 (forallb_forall _ _) C05_example_hop_ok x Hx)). Qed.

Example C05_example_run :
  let f := fold_left (exec_hop toy_hash) [HIns (bs "a") ex_opts 5%N; HDel (bs "a") 6%N; HIns (bs "b") ex_opts 7%N] [] in
  fst (run (find toy_hash (bs "a")) f) = Ok None /\
  fst (run (find toy_hash (bs "b")) f) = Ok (new_entry (bs "b") ex_opts 7%N).
Proof.
  lazy beta iota delta [fold_left exec_hop]. rewrite !(insert_ext toy_fast_eq), (delete_ext toy_fast_eq).
  intros f. rewrite !(run_peq (find_peq toy_fast_eq)). revert f.
  vm_compute. split; reflexivity.
Qed.

Check (C05_find_refines_map : forall hash h f0, IndexInv f0 -> Forall (wf_hop hash) h ->
  IndexInv (fold_left (exec_hop hash) h f0) /\
  (forall k, run (find hash k) (fold_left (exec_hop hash) h f0)
             = (Ok (fold_left spec_step h (abs_idx hash f0) k), fold_left (exec_hop hash) h f0))).

Print Assumptions C05_find_refines_map.
Print Assumptions C05_find_refines_map_closed.
Print Assumptions C05_last_write_wins.
Print Assumptions C05_removed_absent.
Print Assumptions C05_insert_frame.
