(* C13 — a failing filesystem operation surfaces as an error and never corrupts the cache.
   Fault model (theories/Crash.v): [frun] = runs in which ANY number of steps fail (the property asks for one, pairs in
   the thorough tier: both are instances); a failing step answers an errno and leaves the tree as it was or in one of
   the step's intermediate states (short write, some directories of a mkdir -p created, part of a copy).
   [fpost Q p] = Q holds of the result whatever every step answers (any payload of its kind — any bytes — or any errno).
   Theorems:
   (1) every entry point returns Ok or Err under all answers (never Panic / Hang / Stuck), and a read that returns Ok
       returns bytes carrying the requested digest even if the file read delivered arbitrary bytes (truthful success);
   (2) in every faulty run of every entry point the content invariant is kept (every file under content-v2 matches its
       address: complete valid files only) — for commit because the publishing rename is only reached with the temp
       file holding exactly the hashed bytes;
   (3) a faulty index insert (hence keyed commit, removal) ends either with every lookup unchanged and the index area
       well-shaped, or in the state of the complete insert (error reported late, e.g. by a buffered writer's flush);
       it returns Ok only in the latter.  Other keys are never affected.  Retry: the post-state satisfies the
       invariants C02/C05 start from, so the same call then behaves as in the fault-free theorems.
   (4) truthful success of a write: a close / commit that answers Ok in ANY faulty run leaves a file at the content path
       of the hashed bytes — the writer's own bytes (the rename went through) or a file that was already there (the rename
       failed and exists() said yes: by (2) it carries the same digest) — and a keyed commit answers Ok only if the index
       insert answered Ok from that state, which by (3) is the state of the complete insert.
   (5) other entries are unaffected: in ANY faulty run of a keyed one-shot write, every other key's lookup and every
       other stored content file are exactly as before, the index area stays well-shaped, and the written key's lookup is
       its previous entry or the complete new one (FaultFrameP.v).
   (6) retry: after ANY faulty run of a keyed one-shot write the cache is still well-shaped ([Shape]: directories and files
       where they belong, temp entries regular files; kept by every step and every intermediate state), so the same call
       issued again without faults succeeds, its data reads back, and every other key is as before the first attempt
       (RetryP.v).
   Partial: kernel errno semantics and the mapping of library-internal syscalls to model steps (one model step may be
   several syscalls) are exercised by the strace fault sweep, compared by oracle, not step for step. *)
From CC Require Import Bytes Sri Record Fs Prog Api Crash IndexP ReadP WriteP CommitP TotalP CrashP CrashIdxP
  FaultP KeepP FaultFrameP RetryP.

Section C13.
Variable hash : algo -> bytes -> bytes.
Hypothesis HL : HashLen hash.

Theorem C13_all_answers_total fl a key okey o data now w i :
  wf_sri i ->
  fsafe (oneshot hash fl okey o data now) /\ fsafe (write hash fl a key data now) /\ fsafe (open_writer fl okey o) /\
  fsafe (write_chunk w data) /\ fsafe (commit hash w now) /\ fsafe (insert hash key o now) /\
  fsafe (read hash key) /\ fsafe (remove_hash i) /\ fsafe (remove_fully hash key) /\ fsafe (ls hash).
Proof.
  intros Hw. split; [eapply fpost_fsafe, oneshot_returns; exact HL|]. split; [eapply fpost_fsafe, oneshot_returns; exact HL|].
  split; [eapply fpost_fsafe, open_writer_returns|]. split; [eapply fpost_fsafe, write_chunk_returns|].
  split; [eapply fpost_fsafe, commit_returns; exact HL|]. split; [eapply fpost_fsafe, insert_returns|].
  split; [eapply fpost_fsafe, read_returns|]. split; [eapply fpost_fsafe, remove_hash_returns; exact Hw|].
  split; [eapply fpost_fsafe, remove_fully_returns|eapply fpost_fsafe, ls_returns].
Qed.

Theorem C13_read_truthful i : wf_sri i -> fpost (okq (digest_ok hash i)) (read_hash hash i).
Proof. rewrite okq_returns. exact (read_hash_returns hash i). Qed.

(* "for all answers" covers every run, faulty or not *)
Theorem C13_fpost_frun {A} (Q : A -> Prop) (p : prog A) f a f' : fpost Q p -> frun p f a f' -> Q a.
Proof. exact (fpost_frun Q p f a f'). Qed.

Theorem C13_content_inv_faulty {A} (p : prog A) f a f' :
  all_steps csafe' p -> ContentInv hash f -> frun p f a f' -> ContentInv hash f'.
Proof. exact (content_inv_faulty_all hash p f a f'). Qed.

Theorem C13_commit_faulty_content f w now r f' :
  WInv f w -> ContentInv hash f -> frun (commit hash w now) f r f' -> ContentInv hash f'.
Proof. exact (commit_faulty_content hash HL f w now r f'). Qed.

Theorem C13_insert_faulty f key o now r f' :
  IndexInv f -> wf_rec hash (smeta_of key o now) -> PrefixFree hash (encode_smeta (smeta_of key o now)) ->
  frun (insert hash key o now) f r f' ->
  (SameIdx hash f f' \/ f' = snd (run (insert hash key o now) f)) /\
  (forall i, r = Ok i -> f' = snd (run (insert hash key o now) f)).
Proof. exact (insert_faulty hash f key o now r f'). Qed.

Theorem C13_close_truthful f w sri f' :
  WInv f w -> frun (close_writer hash w) f (Ok sri) f' ->
  sri = sri_of hash (w_algo w) (w_data w) /\
  (lookup f' (InCache (cpath hash (w_algo w) (w_data w))) = Some (File (w_data w)) \/
   resolve f' (InCache (cpath hash (w_algo w) (w_data w))) <> None).
Proof. exact (close_writer_faulty_ok hash HL f w sri f'). Qed.

Theorem C13_commit_truthful f w now i f' :
  WInv f w -> frun (commit hash w now) f (Ok i) f' ->
  exists f1,
    frun (close_writer hash w) f (Ok (sri_of hash (w_algo w) (w_data w))) f1 /\
    (lookup f1 (InCache (cpath hash (w_algo w) (w_data w))) = Some (File (w_data w)) \/
     resolve f1 (InCache (cpath hash (w_algo w) (w_data w))) <> None) /\
    match w_key w with
    | None => f' = f1 /\ i = sri_of hash (w_algo w) (w_data w)
    | Some key => exists o', frun (insert hash key o' now) f1 (Ok i) f'
    end.
Proof. exact (commit_faulty_ok hash HL f w now i f'). Qed.

Theorem C13_write_faulty_others f fl a key data now r f' :
  IndexInv f ->
  let o' := commit_opts (write_opts fl a data) (sri_of hash a data) (lenN data) in
  wf_rec hash (smeta_of key o' now) -> PrefixFree hash (encode_smeta (smeta_of key o' now)) ->
  frun (write hash fl a key data now) f r f' ->
  IndexInv f' /\
  (forall k, k <> key -> abs_idx hash f' k = abs_idx hash f k) /\
  (forall l, cfile hash l -> InCache (cpath hash a data) <> l -> lookup f' l = lookup f l) /\
  (abs_idx hash f' key = abs_idx hash f key \/ abs_idx hash f' key = new_entry key o' now).
Proof. exact (write_faulty_others hash HL f fl a key data now r f'). Qed.

Theorem C13_retry_succeeds f fl a key data now r f' :
  IndexInv f -> Shape f ->
  let o' := commit_opts (write_opts fl a data) (sri_of hash a data) (lenN data) in
  wf_rec hash (smeta_of key o' now) -> PrefixFree hash (encode_smeta (smeta_of key o' now)) ->
  frun (write hash fl a key data now) f r f' ->
  CacheInv f' /\
  fst (run (write hash fl a key data now) f') = Ok (sri_of hash a data) /\
  let f'' := snd (run (write hash fl a key data now) f') in
  run (read hash key) f'' = (Ok data, f'') /\ (forall k, k <> key -> abs_idx hash f'' k = abs_idx hash f k).
Proof. exact (write_retry_succeeds hash HL f fl a key data now r f'). Qed.

Theorem C13_remove_hash_faulty_others i f r f' :
  frun (remove_hash i) f r f' ->
  forall l, (forall cp, content_path i = Some cp -> l <> InCache cp) -> lookup f' l = lookup f l.
Proof. exact (remove_hash_faulty_others i f r f'). Qed.

Theorem C13_remove_faulty_others f key now r f' :
  IndexInv f -> wf_rec hash (smeta_of key wopts0 now) -> PrefixFree hash (encode_smeta (smeta_of key wopts0 now)) ->
  frun (delete hash key now) f r f' ->
  IndexInv f' /\
  (forall k, k <> key -> abs_idx hash f' k = abs_idx hash f k) /\
  (forall l, ~ is_index l -> lookup f' l = lookup f l) /\
  (abs_idx hash f' key = abs_idx hash f key \/ abs_idx hash f' key = None).
Proof. exact (delete_faulty_others hash f key now r f'). Qed.

(* what SameIdx gives: the index area is well-shaped, every key's lookup and every non-index location unchanged *)
Theorem C13_same_idx f c :
  SameIdx hash f c -> IndexInv c /\ (forall k, abs_idx hash c k = abs_idx hash f k) /\ (forall l, ~ is_index l -> lookup c l = lookup f l).
Proof. intros H. split; [exact (proj1 H)|]. split; [intros k; apply SameIdx_abs; exact H|exact (proj2 (proj2 H))]. Qed.

End C13.

Definition toy_hash (a : algo) (d : bytes) : bytes :=
  [n2b (N.modulo (lenN d) 251); n2b (N.modulo (fold_left (fun acc b => acc * 31 + b2n b)%N d 7%N) 256); x01].
(* non-vacuity: a faulty run exists — the index append of an insert fails after a short write of 10 bytes *)
Example C13_example :
  exists g, frun (step_ok (Append (InCache [bs "b"]) (bs "0123456789abcdef"))) [(InCache [bs "b"], File (bs "old"))] (Err EIoErr) g /\
            lookup g (InCache [bs "b"]) = Some (File (bs "old0123456789")).
Proof.
  eexists. split.
  - unfold step_ok. eapply (FFault _ _ _ EIO).
    + exact I.
    + right. vm_compute. do 9 right. left. reflexivity.
    + cbn beta iota. apply FRet.
  - vm_compute. reflexivity.
Qed.

(* the shape premise is satisfiable: the empty cache, and the cache after a write *)
Example C13_shape_empty : Shape [].
Proof. intros l n H. discriminate. Qed.

Print Assumptions C13_all_answers_total.
Print Assumptions C13_read_truthful.
Print Assumptions C13_fpost_frun.
Print Assumptions C13_content_inv_faulty.
Print Assumptions C13_commit_faulty_content.
Print Assumptions C13_insert_faulty.
Print Assumptions C13_same_idx.
Print Assumptions C13_close_truthful.
Print Assumptions C13_commit_truthful.
Print Assumptions C13_write_faulty_others.
Print Assumptions C13_retry_succeeds.
Print Assumptions C13_remove_hash_faulty_others.
Print Assumptions C13_remove_faulty_others.
