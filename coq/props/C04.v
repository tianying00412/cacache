(* C04 — a keyed write or removal interrupted by a crash is all-or-nothing.
   At EVERY crash state of a keyed commit (every step boundary of publishing the content and of the index insert,
   the index append torn at every byte length): every other key is at its previous value (even when it shares the
   bucket: [hash] is arbitrary), the key itself is at its previous value or at the complete new entry (all supplied
   metadata), and whenever the new entry is visible its content is completely stored; the index area stays
   well-shaped, so from any crash state every later history behaves per C05 — in particular a later write to the
   same key succeeds and is visible (the next record's leading newline terminates the torn tail).  Same for the
   tombstone of a removal.
   [PrefixFree text]: no proper prefix of the record's JSON text has the SHA-256 of the whole text — needed only for
   tears after the tab; a property of the hash on one string that no theorem can establish, hence a hypothesis
   visible in each statement.  Modelled, not verified: a single O_APPEND write(2) lands as a prefix of its bytes. *)
From CC Require Import Bytes Json Sri Record Fs Prog Api Crash RecordP IndexP WriteP CommitP CrashIdxP KeepP
  HistP CrashHistP HashExtP.

Section C04.
Variable hash : algo -> bytes -> bytes.
Hypothesis HL : HashLen hash.

Theorem C04_commit_keyed_crash f w now key final :
  WInv f w -> CacheInv f -> w_key w = Some key ->
  declared_ok (w_opts w) (sri_of hash (w_algo w) (w_data w)) = Some final ->
  size_ok (w_opts w) (lenN (w_data w)) = true ->
  let o' := commit_opts (w_opts w) final (lenN (w_data w)) in
  wf_rec hash (smeta_of key o' now) -> parse_entry_sri (sri_text final) = Some final ->
  PrefixFree hash (encode_smeta (smeta_of key o' now)) ->
  Forall (fun c =>
            IndexInv c /\
            (forall k, k <> key -> abs_idx hash c k = abs_idx hash f k) /\
            (abs_idx hash c key = abs_idx hash f key \/
             (abs_idx hash c key = new_entry key o' now /\
              lookup c (InCache (cpath hash (w_algo w) (w_data w))) = Some (File (w_data w)))))
         (crash_states (commit hash w now) f).
Proof. exact (commit_keyed_crash hash HL f w now key final). Qed.

Theorem C04_insert_crash f key o now :
  IndexInv f -> wf_rec hash (smeta_of key o now) -> wf_sri_opt o -> PrefixFree hash (encode_smeta (smeta_of key o now)) ->
  Forall (fun c => IndexInv c /\ (forall l, ~ is_index l -> lookup c l = lookup f l) /\
                   ((forall k, abs_idx hash c k = abs_idx hash f k) \/
                    (forall k, abs_idx hash c k = if bytes_eqb k key then new_entry key o now else abs_idx hash f k)))
         (crash_states (insert hash key o now) f).
Proof. exact (insert_crash_lookups hash f key o now). Qed.

Theorem C04_remove_crash f key now :
  IndexInv f -> wf_rec hash (smeta_of key wopts0 now) -> PrefixFree hash (encode_smeta (smeta_of key wopts0 now)) ->
  Forall (fun c => IndexInv c /\ (forall l, ~ is_index l -> lookup c l = lookup f l) /\
                   ((forall k, abs_idx hash c k = abs_idx hash f k) \/
                    (forall k, abs_idx hash c k = if bytes_eqb k key then None else abs_idx hash f k)))
         (crash_states (delete hash key now) f).
Proof. exact (delete_crash hash f key now). Qed.

(* a torn record is ignored on its own and the bucket stays appendable *)
Theorem C04_torn_append d m p :
  no_pending_cr d -> wf_rec hash m -> PrefixFree hash (encode_smeta m) -> In p (proper_prefixes (record_bytes hash m)) ->
  entries hash (d ++ p) = entries hash d /\ no_pending_cr (d ++ p).
Proof. exact (torn_append hash d m p). Qed.

(* restart and continue: from any tree with a well-shaped index area — every crash state above is one — every later
   history of inserts/removals is answered by the abstract map started at the crash state's lookups (C05) *)
Theorem C04_crash_then_continue c (h : list hop) :
  IndexInv c -> Forall (wf_hop hash) h ->
  forall k, run (find hash k) (fold_left (exec_hop hash) h c)
            = (Ok (fold_left spec_step h (abs_idx hash c) k), fold_left (exec_hop hash) h c).
Proof. intros Hi Hw. exact (proj2 (find_refines_map hash h c Hi Hw)). Qed.

(* every other key keeps its value — the content half: whatever a keyed write (any chunking) or a removal is killed at,
   every content file that was there is still there with the same bytes (KeepP.v); the index half is in the theorems above *)
Theorem C04_write_crash_keeps_content f fl key o cs now a0 d :
  CacheInv f -> lookup f (InCache (cpath hash a0 d)) = Some (File d) ->
  (InCache (cpath hash (algo_of o) (List.concat cs)) = InCache (cpath hash a0 d) -> List.concat cs = d) ->
  Forall (fun g => lookup g (InCache (cpath hash a0 d)) = Some (File d)) (crash_states (stream_write hash fl key o cs now) f) /\
  lookup (snd (run (stream_write hash fl key o cs now) f)) (InCache (cpath hash a0 d)) = Some (File d).
Proof. intros H1 H2 H3. apply (stream_write_keeps hash HL); [eexists _, _; reflexivity|exact H1|exact H2|exact H3]. Qed.

Theorem C04_remove_crash_keeps_content f key now a0 d :
  lookup f (InCache (cpath hash a0 d)) = Some (File d) ->
  Forall (fun g => lookup g (InCache (cpath hash a0 d)) = Some (File d)) (crash_states (insert hash key wopts0 now) f) /\
  lookup (snd (run (insert hash key wopts0 now) f)) (InCache (cpath hash a0 d)) = Some (File d).
Proof. intros H. apply (insert_keeps hash); [eexists _, _; reflexivity|exact H]. Qed.

(* the WHOLE keyed write (opening the writer, every chunk, trimming, publishing, the index append torn anywhere), from any
   well-shaped cache: at every crash state every other key's lookup is as before, the key is at its previous entry or at
   the complete new one with its content stored, the index stays well-shaped *)
Theorem C04_whole_write_crash f fl key o cs now :
  CacheInv f -> o_sri o = None -> size_ok o (lenN (List.concat cs)) = true ->
  let data := List.concat cs in let a := algo_of o in
  let o' := commit_opts o (sri_of hash a data) (lenN data) in
  wf_rec hash (smeta_of key o' now) -> PrefixFree hash (encode_smeta (smeta_of key o' now)) ->
  Forall (fun c => IndexInv c /\
                   (forall k, k <> key -> abs_idx hash c k = abs_idx hash f k) /\
                   (abs_idx hash c key = abs_idx hash f key \/
                    (abs_idx hash c key = new_entry key o' now /\ lookup c (InCache (cpath hash a data)) = Some (File data))))
         (crash_states (stream_write hash fl (Some key) o cs now) f).
Proof. exact (stream_write_keyed_crash hash HL f fl key o cs now). Qed.

(* and after ANY history of writes and removals (HistP.v): a kill at any point of the next keyed write; every other key
   reads exactly what the history's specification says (its stored value, or not found), the written key reads its old
   value or the new data *)
Theorem C04_crash_after_history (h : list cop) fl key o cs now :
  forallb (c_ok hash) h = true -> c_ok hash (CStream fl key o cs now) = true ->
  NoColl hash (c_all (c_step hash (fold_left (c_step hash) h cspec0) (CStream fl key o cs now))) ->
  let f := fold_left (c_run hash) h [] in let s := fold_left (c_step hash) h cspec0 in
  let data := List.concat cs in let a := algo_of o in
  PrefixFree hash (encode_smeta (smeta_of key (commit_opts o (sri_of hash a data) (lenN data)) now)) ->
  Forall (fun c =>
            (forall k, k <> key ->
               match c_map s k with
               | Some (a0, d0) => memb (a0, d0) (c_stored s) = true -> run (read hash k) c = (Ok d0, c)
               | None => run (read hash k) c = (Err ENotFound, c)
               end) /\
            (run (read hash key) c = (c_read s key, c) \/ run (read hash key) c = (Ok data, c) \/
             exists a0 d0, c_map s key = Some (a0, d0) /\ memb (a0, d0) (c_stored s) = false))
         (crash_states (stream_write hash fl (Some key) o cs now) f).
Proof. exact (crash_reads_after_history hash HL h fl key o cs now). Qed.

End C04.

Definition toy_hash (a : algo) (d : bytes) : bytes :=
  [n2b (N.modulo (lenN d) 251); n2b (N.modulo (fold_left (fun acc b => acc * 31 + b2n b)%N d 7%N) 256); x01].
(* non-vacuity: all crash states of an overwrite of key "k" (including every torn length of the record): the lookup
   is the old entry in all states but the last, where it is the new one *)
Definition ex_o1 : wopts := mkWopts None (Some [mkHash Sha256 (bs "AAECAw==")]) (Some 4%N) (Some 7%N) None None.
Definition ex_o2 : wopts := mkWopts None (Some [mkHash Sha256 (bs "BAUGBw==")]) (Some 5%N) (Some 8%N) (Some (JStr (bs "é"))) None.
Lemma filter_map_length {A B} (g g' : A -> B) (p : B -> bool) l :
  (forall c, g c = g' c) -> List.length (filter (fun c => p (g c)) l) = List.length (filter p (map g' l)).
Proof.
  intros E. induction l as [|a l IH]; [reflexivity|]. cbn [filter map]. rewrite <- E. destruct (p (g a)); cbn [List.length]; rewrite IH; reflexivity.
Qed.

Example C04_example :
  let f := snd (run (insert toy_hash (bs "k") ex_o1 1%N) []) in
  let cs := crash_states (insert toy_hash (bs "k") ex_o2 2%N) f in
  let olds := filter (fun c => match fst (run (find toy_hash (bs "k")) c) with Ok (Some m) => N.eqb (m_size m) 4 | _ => false end) cs in
  let news := filter (fun c => match fst (run (find toy_hash (bs "k")) c) with Ok (Some m) => N.eqb (m_size m) 5 | _ => false end) cs in
  (List.length cs = List.length olds + List.length news)%nat /\ (List.length news = 1)%nat /\ (100 < List.length olds)%nat.
Proof.
  (* evaluated on the list [rs] of lookups, one per crash state *)
  rewrite !(insert_ext toy_fast_eq). intros f cs olds news.
  pose (p n (r : res (option meta)) := match r with Ok (Some m) => N.eqb (m_size m) n | _ => false end).
  pose (rs := map (fun c => fst (run (find toy_fast (bs "k")) c)) cs).
  assert (Hn : forall n, List.length (filter (fun c => p n (fst (run (find toy_hash (bs "k")) c))) cs) = List.length (filter (p n) rs)).
  { intros n. apply filter_map_length. intros c. rewrite (run_peq (find_peq toy_fast_eq)). reflexivity. }
  rewrite (Hn 4%N : List.length olds = _), (Hn 5%N : List.length news = _), <- (map_length _ cs : List.length rs = _).
  clear Hn olds news. revert f cs rs. vm_compute. repeat split; repeat constructor.
Qed.

Print Assumptions C04_commit_keyed_crash.
Print Assumptions C04_insert_crash.
Print Assumptions C04_remove_crash.
Print Assumptions C04_torn_append.
Print Assumptions C04_crash_then_continue.
Print Assumptions C04_write_crash_keeps_content.
Print Assumptions C04_remove_crash_keeps_content.
Print Assumptions C04_whole_write_crash.
Print Assumptions C04_crash_after_history.
