(* C16 — addresses are pure digests: identical data is stored once, algorithms coexist. *)
From CC Require Import Bytes Sri Fs Prog Api IndexP WriteP CommitP Crash KeepP.

Section C16.
Variable hash : algo -> bytes -> bytes.
Hypothesis HL : HashLen hash.

(* the address returned depends only on (algorithm, bytes): not on the key, the chunking, the flavour, the
   entry point, the declared size or the state of the cache *)
Theorem C16_address_is_digest_keyed f fl key o cs now :
  CacheInv f -> o_sri o = None -> size_ok o (lenN (List.concat cs)) = true ->
  wf_rec hash (smeta_of key (commit_opts o (sri_of hash (algo_of o) (List.concat cs)) (lenN (List.concat cs))) now) ->
  fst (run (stream_write hash fl (Some key) o cs now) f) = Ok (sri_of hash (algo_of o) (List.concat cs)).
Proof. intros H1 H2 H3 H4. exact (proj1 (stream_write_keyed_roundtrip hash HL f fl key o cs now H1 H2 H3 H4)). Qed.

Theorem C16_address_is_digest_by_hash f fl o cs now :
  CacheInv f -> o_sri o = None -> size_ok o (lenN (List.concat cs)) = true ->
  fst (run (stream_write hash fl None o cs now) f) = Ok (sri_of hash (algo_of o) (List.concat cs)).
Proof. intros H1 H2 H3. exact (proj1 (stream_write_by_hash_roundtrip hash HL f fl o cs now H1 H2 H3)). Qed.

(* the data lands at the path of its digest, complete *)
Theorem C16_stored_at_digest_path f w :
  WInv f w -> CacheInv f ->
  lookup (snd (run (close_writer hash w) f)) (InCache (cpath hash (w_algo w) (w_data w))) = Some (File (w_data w)).
Proof.
  intros Hw Hi. destruct (close_writer_inv hash HL f w Hw Hi) as [f1 [Hc [_ [Hcp _]]]]. rewrite Hc. exact Hcp.
Qed.

(* storing the same bytes again adds no second copy and leaves the stored copy byte-identical *)
Theorem C16_restore_idempotent f w :
  WInv f w -> CacheInv f ->
  lookup f (InCache (cpath hash (w_algo w) (w_data w))) = Some (File (w_data w)) ->
  forall l, is_content l ->
    lookup (snd (run (close_writer hash w) f)) l = lookup f l \/
    (lookup f l = None /\ lookup (snd (run (close_writer hash w) f)) l = Some Dir).
Proof. exact (restore_idempotent hash HL f w). Qed.

(* ... at EVERY instant: in every crash state of a write of the same bytes (one-shot; streamed with any chunking), and at
   its end, the stored copy is there and byte-identical *)
Theorem C16_rewrite_keeps_copy f fl key o data now :
  CacheInv f -> lookup f (InCache (cpath hash (algo_of o) data)) = Some (File data) ->
  Forall (fun g => lookup g (InCache (cpath hash (algo_of o) data)) = Some (File data)) (crash_states (oneshot hash fl key o data now) f) /\
  lookup (snd (run (oneshot hash fl key o data now) f)) (InCache (cpath hash (algo_of o) data)) = Some (File data).
Proof. exact (rewrite_keeps_copy hash HL f fl key o data now). Qed.

(* and every other stored copy too, whatever is written (equal bytes or not, any algorithm): entries coexist without
   affecting each other.  The side condition only excludes a digest collision between the written and the stored bytes. *)
Theorem C16_write_keeps_other_copies f fl key o cs now a0 d :
  CacheInv f -> lookup f (InCache (cpath hash a0 d)) = Some (File d) ->
  (InCache (cpath hash (algo_of o) (List.concat cs)) = InCache (cpath hash a0 d) -> List.concat cs = d) ->
  Forall (fun g => lookup g (InCache (cpath hash a0 d)) = Some (File d)) (crash_states (stream_write hash fl key o cs now) f) /\
  lookup (snd (run (stream_write hash fl key o cs now) f)) (InCache (cpath hash a0 d)) = Some (File d).
Proof. intros H1 H2 H3. apply (stream_write_keeps hash HL); [eexists _, _; reflexivity|exact H1|exact H2|exact H3]. Qed.

(* different algorithms never share a content path *)
Theorem C16_algos_disjoint a1 d1 a2 d2 : a1 <> a2 -> cpath hash a1 d1 <> cpath hash a2 d2.
Proof. exact (algos_disjoint hash a1 d1 a2 d2). Qed.

End C16.

Definition toy_hash (a : algo) (d : bytes) : bytes :=
  [n2b (N.modulo (lenN d) 251); n2b (N.modulo (fold_left (fun acc b => acc * 31 + b2n b)%N d 7%N) 256); x01].
Example C16_example :
  let o := mkWopts (Some Xxh3) None None None None None in
  fst (run (stream_write toy_hash Sync None o [bs "ab"; bs "c"] 1%N) []) =
  fst (run (stream_write toy_hash Async (Some (bs "k")) o [bs "a"; bs "bc"] 2%N) []).
Proof. vm_compute. reflexivity. Qed.

(* non-vacuity of the re-write theorem: after one write the copy is there, and a second write of the same bytes has
   crash states (17 of them), all of which still hold it *)
Example C16_example_rewrite :
  let o := mkWopts (Some Sha1) None None None None None in
  let f := snd (run (oneshot toy_hash Sync (Some (bs "k")) o (bs "same") 1%N) []) in
  lookup f (InCache (cpath toy_hash Sha1 (bs "same"))) = Some (File (bs "same")) /\
  (1 < List.length (crash_states (oneshot toy_hash Async (Some (bs "k2")) o (bs "same") 2%N) f))%nat /\
  forallb (fun g => match lookup g (InCache (cpath toy_hash Sha1 (bs "same"))) with Some (File d) => bytes_eqb d (bs "same") | _ => false end)
          (crash_states (oneshot toy_hash Async (Some (bs "k2")) o (bs "same") 2%N) f) = true.
Proof. vm_compute. split; [reflexivity|]. split; [repeat constructor|reflexivity]. Qed.

Print Assumptions C16_address_is_digest_keyed.
Print Assumptions C16_address_is_digest_by_hash.
Print Assumptions C16_stored_at_digest_path.
Print Assumptions C16_restore_idempotent.
Print Assumptions C16_algos_disjoint.
Print Assumptions C16_rewrite_keeps_copy.
Print Assumptions C16_write_keeps_other_copies.
