(* C14 — abandoned or rejected writes leave no trace in the index or temp area.
   Every step of a writer's life except an accepted commit leaves every lookup unchanged, and when the writer
   is gone so is its temp file.  A write cancelled while its background task is in flight is in the model too (Sess.v OAbandon: the
   chunk is stored and hashed, not acknowledged; the answer stays in the writer) and checked against the real writers
   by the "cancel" suite; when exactly the executor drops the temp file of a writer dropped in that state is runtime
   behaviour the model does not order — partial there. *)
From CC Require Import Bytes Sri Fs Prog Api IndexP WriteP CommitP Sess SessP.

Section C14.
Variable hash : algo -> bytes -> bytes.
Hypothesis HL : HashLen hash.

(* opening a writer changes no lookup *)
Theorem C14_open_no_effect f fl key o :
  CacheInv f -> forall k, abs_idx hash (snd (run (open_writer fl key o) f)) k = abs_idx hash f k.
Proof. intros _. exact (open_no_effect hash f fl key o). Qed.

(* writing a chunk touches nothing but the writer's own temp file *)
Theorem C14_chunk_no_effect f w s :
  WInv f w -> forall l, l <> w_tmp w -> lookup (snd (run (write_chunk w s) f)) l = lookup f l.
Proof using hash. intros _. exact (chunk_no_effect f w s). Qed.

(* dropping: the temp file is gone, every other location is exactly as before *)
Theorem C14_drop_no_trace f w :
  WInv f w ->
  lookup (snd (run (drop_writer w) f)) (w_tmp w) = None /\
  forall l, l <> w_tmp w -> lookup (snd (run (drop_writer w) f)) l = lookup f l.
Proof. exact (drop_no_trace f w). Qed.

(* a rejected commit: every index location untouched, no temp file left *)
Theorem C14_rejected_no_trace f w now :
  WInv f w -> CacheInv f ->
  (declared_ok (w_opts w) (sri_of hash (w_algo w) (w_data w)) = None \/
   exists s, o_size (w_opts w) = Some s /\ s <> lenN (w_data w)) ->
  (fst (run (commit hash w now) f) = Err EIntegrity \/
   exists s, fst (run (commit hash w now) f) = Err (ESizeMismatch s (lenN (w_data w)))) /\
  (forall l, is_index l -> lookup (snd (run (commit hash w now) f)) l = lookup f l) /\
  (forall k, abs_idx hash (snd (run (commit hash w now) f)) k = abs_idx hash f k) /\
  lookup (snd (run (commit hash w now) f)) (w_tmp w) = None /\
  CacheInv (snd (run (commit hash w now) f)).
Proof. exact (commit_rejected_frame hash HL f w now). Qed.

(* over sessions (SessP.v): in ANY reachable state of ANY session — other writers open, other calls interleaved — opening a
   writer, feeding it (acknowledged writes, single write() calls, writes cancelled while the background task is in flight)
   and dropping it changes no location under index-v5 or content-v2, so no lookup, listing or read can tell; and after the
   drop its temp file is gone *)
Theorem C14_sessions ops o now :
  Forall sess_op ops -> quiet_op o ->
  let s := snd (run_ops hash sstate0 ops 0) in
  (forall l, is_index l \/ is_content l -> lookup (s_fs (snd (step hash s o now))) l = lookup (s_fs s) l) /\
  (forall h ws, o = ODrop h -> hget h (s_w s) = Some ws -> lookup (s_fs (snd (step hash s o now))) (w_tmp ws) = None).
Proof.
  intros H1 H2 s. apply (quiet_ops_no_trace hash); [|exact H2]. exact (run_ops_sinv hash HL ops sstate0 0 (sinv_init hash) H1).
Qed.

End C14.

Definition toy_hash (a : algo) (d : bytes) : bytes :=
  [n2b (N.modulo (lenN d) 251); n2b (N.modulo (fold_left (fun acc b => acc * 31 + b2n b)%N d 7%N) 256); x01].
Example C14_example :
  match run (open_writer Sync (Some (bs "k")) (mkWopts None None (Some 4%N) None None None)) [] with
  | (Ok w, f1) =>
      match run (write_chunk w (bs "ab")) f1 with
      | (Ok w2, f2) => snd (run (drop_writer w2) f2) = [(InCache [bs "tmp"], Dir)]
      | _ => False end
  | _ => False end.
Proof. vm_compute. reflexivity. Qed.

Print Assumptions C14_open_no_effect.
Print Assumptions C14_chunk_no_effect.
Print Assumptions C14_drop_no_trace.
Print Assumptions C14_rejected_no_trace.
Print Assumptions C14_sessions.
