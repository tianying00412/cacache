(* C17 — the on-disk layout is the fixed, versioned cacache format, readable by others.
   Paths and record framing are pinned as equalities to the literal format; every bucket produced by any history
   of inserts/removals is its initial bytes followed by whole records (nl . hex64 . tab . json) in order; a naive
   reader defined from the format sentence alone (64 hex characters, a tab, the JSON text; scan from the end for
   the key) returns the same records and the same lookups as the library's reader on every bucket in that
   language, whoever wrote it — which is both directions of the interoperability claim.  [hash] is arbitrary
   (with SHA-256 digests of 32 bytes for the fixed-width naive reader).  Outside the language (crafted lines with
   tabs inside the JSON, CR before the newline) the two readers may differ; the property does not speak of those. *)
From CC Require Import Bytes Codec Json Sri Record Api RecordP IndexP WriteP FormatP HashExtP.
Local Open Scope N_scope.

Section C17.
Variable hash : algo -> bytes -> bytes.

Theorem C17_bucket_path_format key :
  let h := hex_encode (hash Sha1 key) in
  bucket_path hash key = [bs "index-v5"; takeN 2 h; takeN 2 (dropN 2 h); dropN 4 h].
Proof. exact (bucket_path_format hash key). Qed.

Theorem C17_content_path_format a data :
  HashLen hash ->
  let h := hex_encode (hash a data) in
  content_path (sri_of hash a data) = Some [bs "content-v2"; algo_name a; takeN 2 h; takeN 2 (dropN 2 h); dropN 4 h].
Proof. exact (content_path_format hash a data). Qed.

Theorem C17_algo_names :
  map algo_name [Sha1; Sha256; Sha384; Sha512; Xxh3] = [bs "sha1"; bs "sha256"; bs "sha384"; bs "sha512"; bs "xxh3"].
Proof. exact algo_names. Qed.

Theorem C17_record_format m :
  record_bytes hash m = nl :: hex_encode (hash Sha256 (encode_smeta m)) ++ tab :: encode_smeta m /\
  encode_smeta m =
  ser (JObj [ (bs "key", JStr (sm_key m));
              (bs "integrity", match sm_integrity m with Some s => JStr s | None => JNull end);
              (bs "time", JInt (Z.of_N (sm_time m)));
              (bs "size", JInt (Z.of_N (sm_size m)));
              (bs "metadata", sm_metadata m);
              (bs "raw_metadata", jraw (sm_raw m)) ]).
Proof. exact (conj (record_format hash m) (record_json_fields m)). Qed.

Theorem C17_bucket_language h f0 b :
  IndexInv f0 -> Forall (wf_hop hash) h -> (exists a c d, b = [index_dir; a; c; d]) ->
  bucket_at (fold_left (exec_hop hash) h f0) b = bucket_at f0 b ++ bucket_of hash (hist_records hash h b).
Proof. exact (bucket_language hash h f0 b). Qed.

Theorem C17_ref_reader_agrees (Sha256Len : forall d, lenN (hash Sha256 d) = 32) ms key :
  Forall (wf_rec hash) ms ->
  naive_entries hash (bucket_of hash ms) = entries hash (bucket_of hash ms) /\
  naive_find hash key (bucket_of hash ms) = find_bytes hash key (bucket_of hash ms).
Proof. exact (ref_reader_agrees hash Sha256Len ms key). Qed.

Theorem C17_reader_returns_records ms :
  Forall (wf_rec hash) ms -> entries hash (bucket_of hash ms) = ms /\ no_pending_cr (bucket_of hash ms).
Proof. exact (entries_bucket_of hash ms). Qed.

End C17.

(* non-vacuity: a two-record bucket (a write and a tombstone) under a toy hash with 32-byte SHA-256 digests *)
Definition toy_hash (a : algo) (d : bytes) : bytes :=
  match a with
  | Sha256 => n2b (N.modulo (lenN d) 251) :: n2b (N.modulo (fold_left (fun acc b => acc * 31 + b2n b)%N d 7%N) 256) :: repeat x2a 30
  | _ => [n2b (N.modulo (lenN d) 251); n2b (N.modulo (fold_left (fun acc b => acc * 31 + b2n b)%N d 7%N) 256); x01]
  end.
Definition toy_fast32 (a : algo) (d : bytes) : bytes :=
  match a with Sha256 => n2b (N.modulo (lenN d) 251) :: n2b (toy_sum d) :: repeat x2a 30 | _ => toy_fast a d end.
Lemma toy_fast32_eq a d : toy_hash a d = toy_fast32 a d.
Proof. unfold toy_hash, toy_fast32, toy_fast. rewrite toy_sum_eq. reflexivity. Qed.
Definition ex_ms : list smeta :=
  [ mkSmeta (bs "k") (Some (bs "sha256-AAECAw==")) 7 4 (JObj [(bs "a", JArr [JInt 1; JNull])]) (Some [x00; xff]);
    mkSmeta (bs "k") None 8 0 JNull None ].
Example C17_example :
  naive_entries toy_hash (bucket_of toy_hash ex_ms) = ex_ms /\
  entries toy_hash (bucket_of toy_hash ex_ms) = ex_ms /\
  naive_find toy_hash (bs "k") (bucket_of toy_hash ex_ms) = None /\
  naive_find toy_hash (bs "k") (bucket_of toy_hash (firstn 1 ex_ms)) <> None.
Proof.
  rewrite !(bucket_of_ext toy_fast32_eq), (naive_entries_ext toy_fast32_eq), (entries_ext toy_fast32_eq), !(naive_find_ext toy_fast32_eq).
  vm_compute. repeat split; try reflexivity. discriminate.
Qed.

Print Assumptions C17_bucket_path_format.
Print Assumptions C17_content_path_format.
Print Assumptions C17_algo_names.
Print Assumptions C17_record_format.
Print Assumptions C17_bucket_language.
Print Assumptions C17_ref_reader_agrees.
Print Assumptions C17_reader_returns_records.
