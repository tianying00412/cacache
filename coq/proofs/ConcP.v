(* ConcP.v — C07: all interleavings.  (1) the explorer is complete: every terminal state reachable by any interleaving
   of the pool's steps is in its output; (2) an invariant kept by every step is kept by every interleaving, for pools of
   any size (content invariant for all programs whose steps are state-independently safe); (3) appends to one
   file never splice: an append is one step, so after any sequence of them (whichever threads issue them) the file is the
   initial bytes followed by whole records in step order. *)
From CC Require Import Bytes Sri Fs Prog Crash Conc FsP CrashP.

Lemma results_some_ret {A} (pl : pool A) rs : results pl = Some rs -> pl = map Ret rs.
Proof.
  revert rs. induction pl as [|p pl IH]; intros rs H; cbn [results] in H; [inversion H; reflexivity|].
  destruct p as [a|c k]; [|discriminate]. destruct (results pl) as [r|]; [|discriminate]. inversion H; subst. cbn [map]. f_equal. apply IH. reflexivity.
Qed.

Lemma results_none_step {A} (pl : pool A) : results pl = None -> exists pre c k post, pl = pre ++ Do c k :: post.
Proof.
  induction pl as [|p pl IH]; cbn [results]; [discriminate|]. destruct p as [a|c k].
  - destruct (results pl); [discriminate|]. intros _. destruct (IH eq_refl) as [pre [c [k [post E]]]]. exists (Ret a :: pre), c, k, post. rewrite E. reflexivity.
  - intros _. exists [], c, k, pl. reflexivity.
Qed.

Lemma pstep_no_results {A} (pl : pool A) f s rs : results pl = Some rs -> ~ pstep (pl, f) s.
Proof.
  intros H Hs. apply results_some_ret in H. inversion Hs as [pre c k post f0 E]. subst.
  assert (In (Do c k) (map Ret rs)) as Hin by (rewrite <- E; apply in_or_app; right; left; reflexivity).
  apply in_map_iff in Hin as [x [Hx _]]. discriminate.
Qed.

Lemma successors_complete {A} (pl : pool A) f s : pstep (pl, f) s -> forall pre0, In (let '(p, g) := s in (pre0 ++ p, g)) (successors pre0 pl f).
Proof.
  intros H. inversion H as [pre c k post f0 E]. subst. clear H. induction pre as [|x pre IH]; intros pre0; cbn [app successors].
  - left. reflexivity.
  - destruct x as [a|c0 k0].
    + specialize (IH (pre0 ++ [Ret a])). rewrite <- app_assoc in IH. exact IH.
    + right. specialize (IH (pre0 ++ [Do c0 k0])). rewrite <- app_assoc in IH. exact IH.
Qed.

Theorem explore_complete {A} fuel : forall (pl : pool A) f L,
  explore fuel pl f = Some L ->
  forall pl' f' rs, preach (pl, f) (pl', f') -> results pl' = Some rs -> In (rs, f') L.
Proof.
  induction fuel as [|n IH]; intros pl f L He pl' f' rs Hr Hres; cbn [explore] in He;
    destruct (results pl) as [r|] eqn:Er; try discriminate He.
  (* all threads have returned: the pool cannot move *)
  1, 2: injection He as <-; inversion Hr as [|s1 s2 s3 Hs _]; subst;
    [rewrite Er in Hres; injection Hres as <-; left; reflexivity|destruct (pstep_no_results pl f s2 r Er Hs)].
  inversion Hr as [|s1 [pl2 f2] s3 Hs Hrest]; subst; [rewrite Er in Hres; discriminate|].
  pose proof (successors_complete pl f (pl2, f2) Hs []) as Hin. cbn [app] in Hin.
  revert L He Hin. generalize (successors [] pl f). intros l. induction l as [|[p g] l IHl]; intros L He Hin; [destruct Hin|].
  destruct (explore n p g) as [a|] eqn:Ea; [|discriminate].
  destruct ((fix go (l : list (pool A * fs)) : option (list (list A * fs)) :=
               match l with [] => Some [] | (pl', f') :: t => match explore n pl' f', go t with Some a, Some b => Some (a ++ b) | _, _ => None end end) l) as [b|] eqn:Eb; [|discriminate].
  inversion He; subst. apply in_or_app. destruct Hin as [E|Hin].
  - inversion E; subst. left. exact (IH pl2 f2 a Ea pl' f' rs Hrest Hres).
  - right. exact (IHl b eq_refl Hin).
Qed.

Theorem interleave_invariant {A} (P : fs -> Prop) (S' : sys -> Prop) :
  (forall c f, P f -> S' c -> P (snd (exec c f))) ->
  forall (s s' : pool A * fs), preach s s' -> Forall (all_steps S') (fst s) -> P (snd s) -> Forall (all_steps S') (fst s') /\ P (snd s').
Proof.
  intros Hstep s s' Hr. induction Hr as [s|s1 s2 s3 Hs _ IH]; intros Hall HP; [auto|].
  apply IH; inversion Hs as [pre c k post f E1 E2]; subst; cbn [fst snd] in *.
  - apply Forall_app in Hall as [H1 H2]. inversion H2 as [|? ? Hd Hpost]; subst. cbn [all_steps] in Hd. destruct Hd as [_ Hk].
    apply Forall_app. split; [exact H1|constructor; [apply Hk|exact Hpost]].
  - apply Forall_app in Hall as [_ H2]. inversion H2 as [|? ? Hd _]; subst. cbn [all_steps] in Hd. apply Hstep; [exact HP|apply Hd].
Qed.

Section Cc.
Variable hash : algo -> bytes -> bytes.

(* no reader ever sees partial content under a content address: in every reachable state of any pool of readers,
   removers, index writers, extractions, listings (every program whose steps never create a file under content-v2)
   the content invariant holds *)
Theorem conc_content_inv {A} (s s' : pool A * fs) :
  preach s s' -> Forall (all_steps csafe') (fst s) -> ContentInv hash (snd s) -> ContentInv hash (snd s').
Proof.
  intros Hr Hall Hc. apply (interleave_invariant (ContentInv hash) csafe' (fun c f Hf Hs => proj1 (step_content hash c f Hf (csafe'_csafe hash c f Hs))) s s' Hr Hall Hc).
Qed.

(* appends by any threads to one file: whole records, in step order, never spliced *)
Theorem appends_never_splice l d recs f :
  lookup f l = Some (File d) ->
  lookup (fold_left (fun g r => snd (exec (Append l r) g)) recs f) l = Some (File (d ++ List.concat recs)).
Proof.
  revert d f. induction recs as [|r recs IH]; intros d f H; cbn [fold_left List.concat]; [rewrite app_nil_r; exact H|].
  rewrite (IH (d ++ r)); [rewrite app_assoc; reflexivity|]. unfold exec. rewrite H. cbn [snd]. apply lookup_update_eq.
Qed.

End Cc.
