(* JsonP.v — the JSON codec of Json.v: the serializer's output is free of control bytes, is valid
   UTF-8, and parses back to the value it was produced from. *)
From Coq Require Import Lia DecimalN DecimalPos DecimalFacts.
From CC Require Import Bytes Codec Utf8 Json BytesP.
Local Open Scope N_scope.

(* induction through the nested lists *)
Section JvInd.
Variable P : jv -> Prop.
Hypothesis HNull : P JNull.
Hypothesis HBool : forall b, P (JBool b).
Hypothesis HInt : forall z, P (JInt z).
Hypothesis HFloat : forall raw, P (JFloat raw).
Hypothesis HStr : forall s, P (JStr s).
Hypothesis HArr : forall l, Forall P l -> P (JArr l).
Hypothesis HObj : forall m, Forall (fun kv => P (snd kv)) m -> P (JObj m).

Fixpoint jv_ind' (v : jv) : P v :=
  match v with
  | JNull => HNull
  | JBool b => HBool b
  | JInt z => HInt z
  | JFloat raw => HFloat raw
  | JStr s => HStr s
  | JArr l =>
      HArr l ((fix go (l : list jv) : Forall P l :=
                 match l with
                 | [] => Forall_nil P
                 | x :: t => Forall_cons x (jv_ind' x) (go t)
                 end) l)
  | JObj m =>
      HObj m ((fix go (m : list (bytes * jv)) : Forall (fun kv => P (snd kv)) m :=
                 match m with
                 | [] => Forall_nil _
                 | kv :: t => Forall_cons kv (jv_ind' (snd kv)) (go t)
                 end) m)
  end.
End JvInd.

(* no float anywhere: [JFloat] carries raw, unconstrained text *)
Fixpoint jclean (v : jv) : bool :=
  match v with
  | JFloat _ => false
  | JArr l => forallb jclean l
  | JObj m => forallb (fun kv => jclean (snd kv)) m
  | _ => true
  end.

Fixpoint jutf8 (v : jv) : bool :=
  match v with
  | JStr s => valid_utf8 s
  | JArr l => forallb jutf8 l
  | JObj m => forallb (fun kv => valid_utf8 (fst kv) && jutf8 (snd kv)) m
  | _ => true
  end.

(* nesting depth of containers (an empty container counts: the parser decrements its depth
   budget on '[' / '{' before looking for the closing bracket) *)
Fixpoint jdepth (v : jv) : nat :=
  match v with
  | JArr l => S (fold_right (fun x acc => Nat.max (jdepth x) acc) O l)
  | JObj m => S (fold_right (fun kv acc => Nat.max (jdepth (snd kv)) acc) O m)
  | _ => O
  end.

(* fuel the parser needs: one unit per value and one per container member *)
Fixpoint jsize (v : jv) : nat :=
  match v with
  | JArr l => S (fold_right (fun x acc => S (jsize x) + acc)%nat O l)
  | JObj m => S (fold_right (fun kv acc => S (jsize (snd kv)) + acc)%nat O m)
  | _ => 1%nat
  end.

Lemma intercalate_cons sep x l :
  intercalate sep (x :: l) = x ++ match l with [] => [] | _ => sep ++ intercalate sep l end.
Proof. destruct l; [symmetry; apply app_nil_r|reflexivity]. Qed.

(* the text of a container is its members joined by commas: [intercalate] of Bytes.v *)
Definition member (kv : bytes * jv) : bytes := ser_string (fst kv) ++ x3a :: ser (snd kv).

Lemma ser_JArr l : ser (JArr l) = x5b :: intercalate [x2c] (map ser l) ++ [x5d].
Proof.
  cbn [ser]. do 2 f_equal. induction l as [|v t IH]; [reflexivity|].
  cbn [map]. rewrite intercalate_cons, <- IH. destruct t; reflexivity.
Qed.

Lemma ser_JObj m : ser (JObj m) = x7b :: intercalate [x2c] (map member m) ++ [x7d].
Proof.
  cbn [ser]. do 2 f_equal. induction m as [|[k v] t IH]; [reflexivity|].
  cbn [map]. rewrite intercalate_cons, <- IH. unfold member. cbn [fst snd]. rewrite <- app_assoc.
  destruct t; reflexivity.
Qed.

Lemma intercalate_closed (Q : bytes -> Prop) sep l :
  Q [] -> (forall a b, Q a -> Q b -> Q (a ++ b)) -> Q sep -> Forall Q l -> Q (intercalate sep l).
Proof.
  intros Q0 Qapp Qs HF. induction HF as [|x t Hx _ IH]; [exact Q0|].
  rewrite intercalate_cons. destruct t; auto.
Qed.

Lemma intercalate_fuel {A} (size : A -> nat) (txt : A -> bytes) c l :
  (forall x, In x l -> (size x <= List.length (txt x))%nat) ->
  (fold_right (fun x acc => S (size x) + acc) O l <= S (List.length (intercalate [c] (map txt l))))%nat.
Proof.
  induction l as [|x t IH]; intros H; [cbn; lia|].
  specialize (IH (fun y Hy => H y (or_intror Hy))). pose proof (H x (or_introl eq_refl)).
  cbn [map fold_right]. rewrite intercalate_cons, app_length.
  destruct t; cbn [map fold_right List.length app] in *; lia.
Qed.

(* [parse_body] with what it does at an ordinary character left abstract.  Unfolding [parse_body]
   on a string whose first byte is a variable gives a match with 256 branches, 255 of them holding
   the whole continuation, and every conversion step pays for all of them; here such a branch is
   one application. *)
Section BodyLoop.
Variable next : bytes -> (bytes -> bytes -> option (bytes * bytes)) -> bytes -> option (bytes * bytes).

Fixpoint body_loop (fuel l acc : bytes) : option (bytes * bytes) :=
  match fuel with
  | [] => None
  | _ :: fuel' => match l with x22 :: t => Some (rev acc, t) | _ => next l (body_loop fuel') acc end
  end.

Lemma body_loop_step f fuel c t acc :
  c <> x22 -> body_loop (f :: fuel) (c :: t) acc = next (c :: t) (body_loop fuel) acc.
Proof. intros H. cbn [body_loop]. destruct c; try reflexivity. congruence. Qed.
End BodyLoop.

Lemma parse_body_loop fuel l acc :
  parse_body fuel l acc =
  body_loop (fun l rec acc => match parse_char l with
                              | Some (bs', t) => rec t (rev_append bs' acc)
                              | None => None end) fuel l acc.
Proof. reflexivity. Qed.

Lemma parse_body_step f fuel l acc bs' r :
  parse_char l = Some (bs', r) ->
  parse_body (f :: fuel) l acc = parse_body fuel r (rev_append bs' acc).
Proof.
  intros Hp. destruct l as [|c t]; [discriminate Hp|].
  assert (c <> x22) as Hc by (intros ->; discriminate Hp).
  rewrite !parse_body_loop, body_loop_step, Hp by exact Hc. reflexivity.
Qed.

(* never [vm_compute]/[cbv] a goal in which [parse_body]/[pval] stays stuck on a variable: strong
   normalisation would expand the compiled pattern matches in their bodies.  Per-byte facts are
   stated on closed terms, or proved by [reflexivity] (lazy conversion). *)
Lemma esc_parse b rest : parse_char (esc b ++ rest) = Some ([b], rest).
Proof. destruct b; reflexivity. Qed.

Lemma parse_body_flat fuel s rest acc :
  (List.length s < List.length fuel)%nat ->
  parse_body fuel (flat_map esc s ++ x22 :: rest) acc = Some (rev acc ++ s, rest).
Proof.
  revert fuel acc. induction s as [|b s IH]; intros [|f fuel] acc Hlen; cbn [List.length] in Hlen; try lia.
  - cbn [flat_map app parse_body]. rewrite app_nil_r. reflexivity.
  - cbn [flat_map]. rewrite <- app_assoc, (parse_body_step _ _ _ _ _ _ (esc_parse b _)), IH by lia.
    cbn [rev_append rev]. rewrite <- app_assoc. reflexivity.
Qed.

Lemma flat_map_esc_length s : (List.length s <= List.length (flat_map esc s))%nat.
Proof.
  induction s as [|b s IH]; [reflexivity|]. cbn [flat_map]. rewrite app_length.
  destruct (esc b) eqn:E; [|cbn [List.length]; lia].
  pose proof (esc_parse b []) as H. rewrite E in H. discriminate H.
Qed.

Theorem parse_string_body_ser s rest :
  parse_string_body (flat_map esc s ++ x22 :: rest) = Some (s, rest).
Proof.
  unfold parse_string_body. apply parse_body_flat.
  cbn [List.length]. rewrite app_length. pose proof (flat_map_esc_length s). lia.
Qed.

Definition starts_digit (rest : bytes) : bool :=
  match rest with b :: _ => is_digit b | [] => false end.

Lemma take_digits_cons b t acc d :
  digit_val b = Some d -> take_digits (b :: t) acc = take_digits t (acc * 10 + d).
Proof. intros H. cbn [take_digits]. rewrite H. reflexivity. Qed.

Lemma take_digits_stop rest acc : starts_digit rest = false -> take_digits rest acc = (acc, rest).
Proof.
  destruct rest as [|b t]; [reflexivity|]. cbn [starts_digit take_digits]. unfold is_digit.
  destruct (digit_val b); [discriminate|reflexivity].
Qed.

Lemma take_digits_pos u rest : starts_digit rest = false -> forall p,
  take_digits (uint_bytes u ++ rest) (Npos p) = (Npos (Pos.of_uint_acc u p), rest).
Proof.
  intros Hr. induction u; intros p; cbn [uint_bytes app Pos.of_uint_acc]; [apply take_digits_stop, Hr|..];
    erewrite take_digits_cons by (cbv; reflexivity); rewrite <- IHu; f_equal; lia.
Qed.

Lemma take_digits_uint u rest :
  starts_digit rest = false -> take_digits (uint_bytes u ++ rest) 0 = (N.of_uint u, rest).
Proof.
  intros Hr. induction u; cbn [uint_bytes app]; [apply take_digits_stop, Hr|..];
    erewrite take_digits_cons by (cbv; reflexivity); [exact IHu|..]; apply (take_digits_pos u rest Hr).
Qed.

Theorem take_digits_dec n rest :
  starts_digit rest = false -> take_digits (dec_of_N n ++ rest) 0 = (n, rest).
Proof.
  intros H. unfold dec_of_N. rewrite take_digits_uint by exact H. rewrite DecimalN.Unsigned.of_to. reflexivity.
Qed.

(* the text of a positive number starts with one of '1' .. '9': wherever the parser branches on
   that byte, each of the nine cases computes *)
Lemma dec_pos_head p :
  exists d t, dec_of_N (Npos p) = d :: t /\ In d [x31; x32; x33; x34; x35; x36; x37; x38; x39].
Proof.
  unfold dec_of_N. cbn [N.to_uint].
  pose proof (DecimalPos.Unsigned.to_of (Pos.to_uint p)) as E.
  rewrite DecimalPos.Unsigned.of_to in E. cbn [N.to_uint] in E.
  destruct (Pos.to_uint p) as [|r|r|r|r|r|r|r|r|r|r] eqn:Eu; cbn [uint_bytes];
    try (do 2 eexists; (split; [reflexivity|]); cbn; tauto); exfalso.
  - discriminate E.
  - (* a leading '0': [unorm] would have removed it *)
    unfold Decimal.unorm in E. rewrite nzhead_D0 in E. destruct (Decimal.nzhead r) eqn:En; try discriminate E.
    + injection E as ->. exact (DecimalPos.Unsigned.to_uint_nonzero p Eu).
    + exact (nzhead_nonzero _ _ En).
Qed.

(* what may follow an integer token: anything but a digit, '.', 'e', 'E' (so: end of input, ',', ']', '}',
   white space, ...) — otherwise the lexer would extend the number *)
Definition num_stop (rest : bytes) : bool :=
  match rest with
  | [] => true
  | b :: _ => negb (is_digit b || Byte.eqb b x2e || Byte.eqb b x65 || Byte.eqb b x45)
  end.

Lemma frac_exp_stop rest : num_stop rest = true -> frac_exp rest = Some (false, rest).
Proof.
  destruct rest as [|b t]; [reflexivity|]. intros H. destruct b; try reflexivity; discriminate H.
Qed.

Lemma num_stop_nodigit rest : num_stop rest = true -> starts_digit rest = false.
Proof.
  destruct rest as [|b t]; [reflexivity|]. cbn [num_stop starts_digit].
  destruct (is_digit b); [discriminate|reflexivity].
Qed.

(* an integer token, with or without '-': a non-zero digit [d], more digits [t] up to [l1] *)
Lemma parse_number_int d dv t mag l1 :
  digit_val d = Some dv -> dv <> 0 -> take_digits t dv = (mag, l1) -> frac_exp l1 = Some (false, l1) ->
  mag <> 0 ->
  parse_number (d :: t) = POk (JInt (Z.of_N mag)) l1 /\
  parse_number (x2d :: d :: t) = POk (JInt (- Z.of_N mag)) l1.
Proof.
  intros Hd Hnz Ht Hf Hm. apply N.eqb_neq in Hnz, Hm.
  assert (forall T (A B : T), match d with x2d => A | _ => B end = B) as Hs
    by (intros; destruct d; try reflexivity; discriminate Hd).
  split; unfold parse_number; [rewrite Hs|]; cbv beta iota zeta; rewrite Hd, Hnz, Ht; cbn [andb];
    rewrite Hf, ?Hm; reflexivity.
Qed.

Lemma parse_number_zero rest : num_stop rest = true -> parse_number (x30 :: rest) = POk (JInt 0) rest.
Proof.
  intros H. pose proof (frac_exp_stop rest H) as Hf. pose proof (num_stop_nodigit rest H) as Hd.
  unfold parse_number. cbv beta iota. change (digit_val x30) with (Some 0). cbv beta iota.
  cbn [N.eqb andb]. unfold starts_digit in Hd. rewrite Hd, Hf. reflexivity.
Qed.

Theorem parse_number_ser z rest :
  num_stop rest = true -> parse_number (ser_int z ++ rest) = POk (JInt z) rest.
Proof.
  intros H. destruct z as [|p|p]; cbn [ser_int]; [apply parse_number_zero, H|..];
    pose proof (take_digits_dec (Npos p) rest (num_stop_nodigit rest H)) as T;
    destruct (dec_pos_head p) as (d & t & E & Hd); rewrite E in *; cbn [app] in *;
    assert (exists dv, digit_val d = Some dv /\ dv <> 0) as (dv & Hdv & Hnz)
      by (repeat destruct Hd as [<-|Hd]; try contradiction; eexists; (split; [reflexivity|discriminate]));
    rewrite (take_digits_cons _ _ _ _ Hdv) in T;
    destruct (parse_number_int d dv _ _ _ Hdv Hnz T (frac_exp_stop rest H)) as [Hp Hn];
    try discriminate; assumption.
Qed.

Lemma pval_str n d r :
  pval (S n) d (x22 :: r) =
  match parse_string_body r with Some (str, r') => POk (JStr str) r' | None => PFail end.
Proof. reflexivity. Qed.

Lemma pval_int n d z rest : pval (S n) d (ser_int z ++ rest) = parse_number (ser_int z ++ rest).
Proof.
  destruct z as [|p|p]; try reflexivity. cbn [ser_int].
  destruct (dec_pos_head p) as (c & t & -> & Hc). repeat destruct Hc as [<-|Hc]; try reflexivity. destruct Hc.
Qed.

Lemma parr_S n d s acc :
  parr (S n) d s acc =
  match pval n d s with
  | POk v r =>
      match skip_ws r with
      | x2c :: r' => parr n d r' (v :: acc)
      | x5d :: r' => POk (JArr (rev (v :: acc))) r'
      | _ => PFail
      end
  | PFail => PFail
  | PFuel => PFuel
  end.
Proof. reflexivity. Qed.

Lemma pobj_S n d body acc :
  pobj (S n) d (x22 :: body) acc =
  match parse_string_body body with
  | Some (k, r1) =>
      match skip_ws r1 with
      | x3a :: r2 =>
          match pval n d r2 with
          | POk v r3 =>
              match skip_ws r3 with
              | x2c :: r4 => pobj n d r4 ((k, v) :: acc)
              | x7d :: r4 => POk (JObj (rev ((k, v) :: acc))) r4
              | _ => PFail
              end
          | PFail => PFail
          | PFuel => PFuel
          end
      | _ => PFail
      end
  | None => PFail
  end.
Proof. reflexivity. Qed.

(* the first byte of the text of a value is explicit in every case, and it is neither white space
   nor ']': after '[' the parser goes on to the elements *)
Lemma pval_arr n d v r :
  jclean v = true -> pval (S n) (S d) (x5b :: ser v ++ r) = parr n d (ser v ++ r) [].
Proof.
  destruct v as [|[|]|[|p|p]|raw|s|l|m]; try reflexivity; [|discriminate]. intros _. cbn [ser ser_int].
  destruct (dec_pos_head p) as (c & t & -> & Hc). repeat destruct Hc as [<-|Hc]; try reflexivity. destruct Hc.
Qed.

Lemma member_app kv r :
  member kv ++ r = x22 :: flat_map esc (fst kv) ++ x22 :: x3a :: ser (snd kv) ++ r.
Proof. unfold member, ser_string. cbn [app]. rewrite <- !app_assoc. reflexivity. Qed.

Lemma pval_obj n d kv r : pval (S n) (S d) (x7b :: member kv ++ r) = pobj n d (member kv ++ r) [].
Proof. rewrite member_app. reflexivity. Qed.

(* the continuation must not extend the token: only integers are sensitive to what follows *)
Definition stop_ok (v : jv) (rest : bytes) : bool :=
  match v with JInt _ => num_stop rest | _ => true end.

Lemma stop_ok_num v rest : num_stop rest = true -> stop_ok v rest = true.
Proof. destruct v; intros H; try reflexivity. exact H. Qed.

Definition pval_ok (v : jv) : Prop :=
  forall n d rest,
    jclean v = true -> (jsize v <= n)%nat -> (jdepth v <= d)%nat -> stop_ok v rest = true ->
    pval n d (ser v ++ rest) = POk v rest.

Lemma parr_ser l :
  Forall pval_ok l -> forallb jclean l = true -> l <> [] ->
  forall n d rest acc,
    (jsize (JArr l) <= S n)%nat -> (jdepth (JArr l) <= S d)%nat ->
    parr n d (intercalate [x2c] (map ser l) ++ x5d :: rest) acc = POk (JArr (rev acc ++ l)) rest.
Proof.
  induction l as [|v t IH]; intros Hall Hcl Hne n d rest acc Hn Hd; [congruence|].
  inversion Hall as [|v' t' Hv Ht]; subst v' t'.
  cbn [forallb] in Hcl. apply andb_true_iff in Hcl as [Hcv Hct].
  destruct n as [|n]; [cbn [jsize fold_right] in Hn; lia|]. destruct t as [|v2 t];
    cbn [jsize jdepth fold_right map] in Hn, Hd, IH |- *; rewrite intercalate_cons, <- app_assoc, parr_S.
  - rewrite Hv by (auto using stop_ok_num; lia). reflexivity.
  - cbn [app]. rewrite Hv by (auto using stop_ok_num; lia). cbn [skip_ws is_ws].
    rewrite IH by (try discriminate; auto; lia). cbn [rev]. rewrite <- app_assoc. reflexivity.
Qed.

Lemma pobj_ser m :
  Forall (fun kv => pval_ok (snd kv)) m -> forallb (fun kv => jclean (snd kv)) m = true -> m <> [] ->
  forall n d rest acc,
    (jsize (JObj m) <= S n)%nat -> (jdepth (JObj m) <= S d)%nat ->
    pobj n d (intercalate [x2c] (map member m) ++ x7d :: rest) acc = POk (JObj (rev acc ++ m)) rest.
Proof.
  induction m as [|[k v] t IH]; intros Hall Hcl Hne n d rest acc Hn Hd; [congruence|].
  inversion Hall as [|kv' t' Hv Ht]; subst kv' t'.
  cbn [forallb] in Hcl. apply andb_true_iff in Hcl as [Hcv Hct].
  destruct n as [|n]; [cbn [jsize fold_right] in Hn; lia|]. destruct t as [|kv2 t];
    cbn [jsize jdepth fold_right map snd] in Hn, Hd, IH, Hv, Hcv |- *;
    rewrite intercalate_cons, <- app_assoc, member_app, pobj_S, parse_string_body_ser;
    cbn [skip_ws is_ws fst snd].
  - rewrite Hv by (auto using stop_ok_num; lia). reflexivity.
  - cbn [app]. rewrite Hv by (auto using stop_ok_num; lia). cbn [skip_ws is_ws].
    rewrite IH by (try discriminate; auto; lia). cbn [rev]. rewrite <- app_assoc. reflexivity.
Qed.

Theorem pval_ser_rest v n d rest :
  jclean v = true -> (jsize v <= n)%nat -> (jdepth v <= d)%nat -> stop_ok v rest = true ->
  pval n d (ser v ++ rest) = POk v rest.
Proof.
  revert n d rest. induction v as [|b|z|raw|s|l IHl|m IHm] using jv_ind'; intros [|n] d rest Hc Hn Hd Hs;
    try (cbn [jsize] in Hn; lia).
  - reflexivity.
  - destruct b; reflexivity.
  - cbn [ser]. rewrite pval_int. apply parse_number_ser, Hs.
  - discriminate Hc.
  - cbn [ser]. unfold ser_string. cbn [app]. rewrite <- app_assoc, pval_str. cbn [app].
    rewrite parse_string_body_ser. reflexivity.
  - destruct d as [|d]; [cbn [jdepth] in Hd; lia|].
    rewrite ser_JArr. cbn [app]. rewrite <- app_assoc. destruct l as [|v t]; [reflexivity|].
    pose proof (parr_ser _ IHl Hc ltac:(discriminate) n d rest [] Hn Hd) as Hp.
    cbn [jclean forallb] in Hc. apply andb_true_iff in Hc as [Hcv _].
    cbn [map] in *. rewrite intercalate_cons, <- app_assoc in *. rewrite pval_arr by exact Hcv. exact Hp.
  - destruct d as [|d]; [cbn [jdepth] in Hd; lia|].
    rewrite ser_JObj. cbn [app]. rewrite <- app_assoc. destruct m as [|kv t]; [reflexivity|].
    pose proof (pobj_ser _ IHm Hc ltac:(discriminate) n d rest [] Hn Hd) as Hp.
    cbn [map] in *. rewrite intercalate_cons, <- app_assoc in *. rewrite pval_obj. exact Hp.
Qed.

(* the fuel chosen by [parse_json] suffices *)
Lemma jsize_le_length v : jclean v = true -> (jsize v <= List.length (ser v))%nat.
Proof.
  induction v as [|b|z|raw|s|l IHl|m IHm] using jv_ind'; intros Hc.
  - cbn. lia.
  - destruct b; cbn; lia.
  - destruct z as [|p|p]; cbn [jsize ser ser_int List.length]; try lia.
    destruct (dec_pos_head p) as (c & t & -> & _). cbn [List.length]. lia.
  - discriminate Hc.
  - cbn [jsize ser]. unfold ser_string. cbn [List.length]. lia.
  - rewrite ser_JArr. cbn [jclean jsize List.length] in *. rewrite app_length. cbn [List.length].
    rewrite forallb_forall in Hc. rewrite Forall_forall in IHl.
    pose proof (intercalate_fuel jsize ser x2c l (fun x Hx => IHl x Hx (Hc x Hx))). lia.
  - rewrite ser_JObj. cbn [jclean jsize List.length] in *. rewrite app_length. cbn [List.length].
    rewrite forallb_forall in Hc. rewrite Forall_forall in IHm.
    assert (forall x, In x m -> (jsize (snd x) <= List.length (member x))%nat) as G.
    { intros x Hx. specialize (IHm x Hx (Hc x Hx)). unfold member. rewrite app_length. cbn [List.length]. lia. }
    pose proof (intercalate_fuel (fun kv => jsize (snd kv)) member x2c m G). lia.
Qed.

Theorem parse_json_ser v :
  jclean v = true -> (jdepth v <= json_depth)%nat -> parse_json (ser v) = POk v [].
Proof.
  intros Hc Hd. unfold parse_json. pose proof (jsize_le_length v Hc) as Hl.
  rewrite <- (app_nil_r (ser v)) at 2.
  rewrite (pval_ser_rest v (2 * List.length (ser v) + 4)%nat _ [] Hc ltac:(lia) Hd (stop_ok_num v [] eq_refl)).
  reflexivity.
Qed.

Definition printable (b : byte) : bool := (32 <=? b2n b) && (b2n b <? 128).

Lemma uint_printable u : forallb printable (uint_bytes u) = true.
Proof. induction u; cbn [uint_bytes forallb]; auto. Qed.

Lemma ser_int_printable z : forallb printable (ser_int z) = true.
Proof. destruct z; unfold ser_int, dec_of_N; cbn [forallb]; rewrite ?uint_printable; reflexivity. Qed.

(* the text of a value is put together from punctuation, digits and escaped strings: a property of
   byte strings that holds of these and that concatenation preserves holds of the text.  [ok] says
   of which strings the escaped form has the property. *)
Section Closed.
Variable Q : bytes -> Prop.
Variable ok : bytes -> bool.
Hypothesis Q_nil : Q [].
Hypothesis Q_app : forall a b, Q a -> Q b -> Q (a ++ b).
Hypothesis Q_printable : forall b, printable b = true -> Q [b].
Hypothesis Q_esc : forall s, ok s = true -> Q (flat_map esc s).

Definition all_strings : jv -> bool :=
  fix go v :=
    match v with
    | JStr s => ok s
    | JArr l => forallb go l
    | JObj m => forallb (fun kv => ok (fst kv) && go (snd kv)) m
    | _ => true
    end.

Lemma Q_text l : forallb printable l = true -> Q l.
Proof.
  induction l as [|b l IH]; [intros _; exact Q_nil|]. cbn [forallb]. intros H.
  apply andb_true_iff in H as [Hb Hl]. exact (Q_app [b] l (Q_printable b Hb) (IH Hl)).
Qed.

Lemma Q_ser_string s : ok s = true -> Q (ser_string s).
Proof.
  intros H. apply (Q_app [x22]), Q_app; [apply Q_text; reflexivity|apply Q_esc, H|apply Q_text; reflexivity].
Qed.

Theorem Q_ser v : jclean v = true -> all_strings v = true -> Q (ser v).
Proof.
  induction v as [|b|z|raw|s|l IHl|m IHm] using jv_ind'; intros Hc Hs.
  - apply Q_text. reflexivity.
  - destruct b; apply Q_text; reflexivity.
  - apply Q_text, ser_int_printable.
  - discriminate Hc.
  - apply Q_ser_string, Hs.
  - rewrite ser_JArr. apply (Q_app [x5b]), Q_app; try (apply Q_text; reflexivity).
    apply intercalate_closed; try assumption; [apply Q_text; reflexivity|].
    cbn [jclean all_strings] in Hc, Hs. rewrite forallb_forall in Hc, Hs.
    rewrite Forall_map, Forall_forall in *. auto.
  - rewrite ser_JObj. apply (Q_app [x7b]), Q_app; try (apply Q_text; reflexivity).
    apply intercalate_closed; try assumption; [apply Q_text; reflexivity|].
    cbn [jclean all_strings] in Hc, Hs. rewrite forallb_forall in Hc, Hs.
    rewrite Forall_map, Forall_forall in *. intros kv Hkv.
    specialize (Hs kv Hkv). apply andb_true_iff in Hs as [Hk Hv].
    apply Q_app; [apply Q_ser_string, Hk|]. apply (Q_app [x3a]); [apply Q_text; reflexivity|auto].
Qed.
End Closed.

Lemma all_strings_true v : all_strings (fun _ => true) v = true.
Proof.
  induction v as [| | | | |l IH|m IH] using jv_ind'; try reflexivity;
    cbn [all_strings]; apply forallb_forall; rewrite Forall_forall in IH; auto.
Qed.

Lemma esc_ge32 b : forallb (fun x => 32 <=? b2n x) (esc b) = true.
Proof. destruct b; reflexivity. Qed.

Theorem ser_no_ctrl v : jclean v = true -> forall b, In b (ser v) -> 32 <= b2n b.
Proof.
  intros Hc b Hb. apply N.leb_le. revert b Hb. apply forallb_forall.
  apply (Q_ser (fun l => forallb (fun x => 32 <=? b2n x) l = true) (fun _ => true)); try assumption.
  - reflexivity.
  - intros a c Ha Hc'. rewrite forallb_app, Ha, Hc'. reflexivity.
  - intros c H. apply andb_true_iff in H as [H _]. cbn [forallb]. rewrite H. reflexivity.
  - intros s _. induction s as [|c s IH]; [reflexivity|]. cbn [flat_map]. rewrite forallb_app, esc_ge32. exact IH.
  - apply all_strings_true.
Qed.

Definition is_ascii (b : byte) : bool := b2n b <? 128.

Lemma valid_utf8_ascii_app l r : forallb is_ascii l = true -> valid_utf8 (l ++ r) = valid_utf8 r.
Proof.
  induction l as [|x l IH]; intros H; [reflexivity|].
  cbn [forallb] in H. apply andb_true_iff in H as [Hx Hl]. unfold is_ascii in Hx.
  cbn [app valid_utf8]. rewrite Hx. apply IH. exact Hl.
Qed.

(* case analysis following the structure of [valid_utf8 (x :: t) = true] in hypothesis [Ha] *)
Local Ltac utf8_cases Ha :=
  repeat match type of Ha with
  | (if ?c then _ else _) = true => let E := fresh "E" in destruct c eqn:E
  | (match ?t with [] => _ | _ :: _ => _ end) = true =>
      let y := fresh "y" in let t' := fresh "t" in destruct t as [|y t']; [discriminate Ha|]
  | false = true => discriminate Ha
  end.

Local Ltac split_andb Ha :=
  repeat match type of Ha with
  | (_ && _) = true => let H := fresh "Hc" in apply andb_true_iff in Ha as [Ha H]
  end.

(* a valid string stays valid when every ASCII byte is replaced by ASCII bytes, whatever valid
   string follows: replacing nothing gives concatenation, replacing by [esc] the escaped form *)
Section Utf8Map.
Variable f : byte -> bytes.
Hypothesis f_ascii : forall b, is_ascii b = true -> forallb is_ascii (f b) = true.
Hypothesis f_hi : forall b, is_ascii b = false -> f b = [b].

Lemma f_rng lo hi y : in_rng lo hi y = true -> (128 <=? lo) = true -> f y = [y].
Proof.
  intros H Hlo. apply f_hi. unfold in_rng in H. unfold is_ascii.
  apply andb_true_iff in H as [H _]. apply N.leb_le in H, Hlo. apply N.ltb_ge. lia.
Qed.

Lemma valid_utf8_map_aux n : forall s r,
  (List.length s <= n)%nat -> valid_utf8 s = true -> valid_utf8 r = true ->
  valid_utf8 (flat_map f s ++ r) = true.
Proof.
  induction n as [|n IH]; intros [|x t] r Hl Hs Hr; try exact Hr; cbn [List.length] in Hl; [lia|].
  cbn [flat_map]. rewrite <- app_assoc. cbn [valid_utf8] in Hs. destruct (is_ascii x) eqn:E0.
  - rewrite valid_utf8_ascii_app by (apply f_ascii, E0). unfold is_ascii in E0. rewrite E0 in Hs.
    apply IH; [lia|exact Hs|exact Hr].
  - rewrite (f_hi x E0). cbn [app valid_utf8]. unfold is_ascii in E0. rewrite E0 in Hs |- *.
    (* [is_cont] is [in_rng 128 191] *)
    utf8_cases Hs; split_andb Hs; cbn [flat_map];
      repeat match goal with
      | H : is_cont ?y = true |- context [f ?y] => rewrite (f_rng 128 191 y H eq_refl)
      | H : in_rng ?lo ?hi ?y = true |- context [f ?y] => rewrite (f_rng lo hi y H eq_refl)
      end;
      cbn [app]; rewrite IH by (assumption || (cbn [List.length] in Hl; lia));
      repeat match goal with H : ?c = true |- context [?c] => rewrite H end; reflexivity.
Qed.
End Utf8Map.

Lemma flat_map_single {A} (l : list A) : flat_map (fun x => [x]) l = l.
Proof. induction l as [|x l IH]; [|cbn [flat_map app]; rewrite IH]; reflexivity. Qed.

Theorem valid_utf8_app a b : valid_utf8 a = true -> valid_utf8 b = true -> valid_utf8 (a ++ b) = true.
Proof.
  intros Ha Hb. rewrite <- (flat_map_single a).
  apply (valid_utf8_map_aux (fun x => [x])) with (n := List.length a); auto.
  intros x H. cbn [forallb]. rewrite H. reflexivity.
Qed.

(* [esc] turns an ASCII byte into ASCII text and leaves the other bytes alone *)
Lemma esc_class b : (if is_ascii b then forallb is_ascii (esc b) else bytes_eqb (esc b) [b]) = true.
Proof. destruct b; reflexivity. Qed.

Lemma esc_ascii b : is_ascii b = true -> forallb is_ascii (esc b) = true.
Proof. intros H. pose proof (esc_class b) as T. rewrite H in T. exact T. Qed.

Lemma esc_hi b : is_ascii b = false -> esc b = [b].
Proof. intros H. pose proof (esc_class b) as T. rewrite H in T. apply bytes_eqb_eq, T. Qed.

Theorem valid_utf8_esc s : valid_utf8 s = true -> valid_utf8 (flat_map esc s) = true.
Proof.
  intros H. rewrite <- (app_nil_r (flat_map esc s)).
  apply (valid_utf8_map_aux esc esc_ascii esc_hi (List.length s)); auto.
Qed.

(* [jutf8] is [all_strings valid_utf8] *)
Theorem ser_utf8 v : jclean v = true -> jutf8 v = true -> valid_utf8 (ser v) = true.
Proof.
  apply (Q_ser (fun l => valid_utf8 l = true) valid_utf8 eq_refl valid_utf8_app); [|exact valid_utf8_esc].
  intros b H. apply andb_true_iff in H as [_ H]. cbn [valid_utf8]. rewrite H. reflexivity.
Qed.

Fixpoint arr_eqb (x y : list jv) : bool :=
  match x, y with
  | [], [] => true
  | a :: x', b :: y' => jv_eqb a b && arr_eqb x' y'
  | _, _ => false
  end.
Fixpoint obj_eqb (x y : list (bytes * jv)) : bool :=
  match x, y with
  | [], [] => true
  | (ka, a) :: x', (kb, b) :: y' => bytes_eqb ka kb && jv_eqb a b && obj_eqb x' y'
  | _, _ => false
  end.

Theorem jv_eqb_iff a : forall b, jv_eqb a b = true <-> a = b.
Proof.
  induction a as [|x|x|x|x|l IHl|m IHm] using jv_ind'; intros [|y|y|y|y|l2|m2];
    try (split; discriminate); cbn [jv_eqb].
  - split; reflexivity.
  - rewrite Bool.eqb_true_iff. split; congruence.
  - rewrite Z.eqb_eq. split; congruence.
  - rewrite bytes_eqb_eq. split; congruence.
  - rewrite bytes_eqb_eq. split; congruence.
  - change (arr_eqb l l2 = true <-> JArr l = JArr l2). transitivity (l = l2); [|split; congruence].
    revert l2. induction IHl as [|v t Hv _ IH]; intros [|v2 t2]; cbn [arr_eqb];
      try (split; discriminate); [split; reflexivity|].
    rewrite andb_true_iff, Hv, IH. split; [intros [-> ->]; reflexivity|intros [= -> ->]; auto].
  - change (obj_eqb m m2 = true <-> JObj m = JObj m2). transitivity (m = m2); [|split; congruence].
    revert m2. induction IHm as [|[k v] t Hv _ IH]; intros [|[k2 v2] t2]; cbn [obj_eqb];
      try (split; discriminate); [split; reflexivity|].
    cbn [snd] in Hv. rewrite !andb_true_iff, bytes_eqb_eq, Hv, IH. split; [intros [[-> ->] ->]; reflexivity|intros [= -> -> ->]; auto].
Qed.

Theorem jv_eqb_eq a b : jv_eqb a b = true -> a = b.
Proof. apply jv_eqb_iff. Qed.

(* serde_json normal form, as a boolean *)
Definition jcanon (v : jv) : bool := jv_eqb (canon v) v.

Lemma jcanon_iff v : jcanon v = true <-> canon v = v.
Proof. apply jv_eqb_iff. Qed.

(* a structural sufficient condition for the normal form: strictly ascending keys *)
Lemma bytes_ltb_cons x a y b :
  bytes_ltb (x :: a) (y :: b) = true <-> b2n x < b2n y \/ b2n x = b2n y /\ bytes_ltb a b = true.
Proof.
  cbn [bytes_ltb]. destruct (N.ltb_spec (b2n x) (b2n y)), (N.ltb_spec (b2n y) (b2n x));
    intuition (discriminate || lia).
Qed.

Lemma bytes_ltb_trans a : forall b c, bytes_ltb a b = true -> bytes_ltb b c = true -> bytes_ltb a c = true.
Proof.
  induction a as [|x a IH]; intros [|y b] [|z c]; try discriminate; try reflexivity.
  rewrite !bytes_ltb_cons. intros [H1|[H1 Ha]] [H2|[H2 Hb]]; [left; lia..|right]. split; [lia|eauto].
Qed.

Lemma bytes_ltb_irrefl a : bytes_ltb a a = false.
Proof. induction a as [|x a IH]; [reflexivity|]. cbn [bytes_ltb]. rewrite N.ltb_irrefl. exact IH. Qed.

Fixpoint keys_sorted (ks : list bytes) : bool :=
  match ks with
  | k1 :: t => match t with k2 :: _ => bytes_ltb k1 k2 | [] => true end && keys_sorted t
  | [] => true
  end.

Fixpoint jsorted (v : jv) : bool :=
  match v with
  | JArr l => forallb jsorted l
  | JObj m => keys_sorted (map fst m) && forallb (fun kv => jsorted (snd kv)) m
  | _ => true
  end.

Lemma keys_sorted_app_lt a k r :
  keys_sorted (a ++ k :: r) = true -> Forall (fun x => bytes_ltb x k = true) a.
Proof.
  induction a as [|x a IH]; intros H; [constructor|].
  cbn [app keys_sorted] in H. apply andb_true_iff in H as [H1 H2]. specialize (IH H2).
  constructor; [|exact IH].
  destruct a as [|y a]; cbn [app] in H1; [exact H1|].
  inversion IH as [|y' a' Hy Ha]; subst y' a'. exact (bytes_ltb_trans x y k H1 Hy).
Qed.

Lemma obj_insert_last k v acc :
  Forall (fun x => bytes_ltb x k = true) (map fst acc) -> obj_insert k v acc = acc ++ [(k, v)].
Proof.
  induction acc as [|[k' v'] acc IH]; intros H; [reflexivity|].
  cbn [map fst] in H. inversion H as [|x l Hk Hl]; subst x l. cbn [obj_insert]. rewrite (IH Hl).
  destruct (bytes_eqb_spec k k') as [->|_]; [rewrite bytes_ltb_irrefl in Hk; discriminate Hk|].
  destruct (bytes_ltb k k') eqn:E; [|reflexivity].
  pose proof (bytes_ltb_trans k k' k E Hk) as C. rewrite bytes_ltb_irrefl in C. discriminate C.
Qed.

Fixpoint canon_obj (m acc : list (bytes * jv)) : list (bytes * jv) :=
  match m with
  | [] => acc
  | (k, v) :: t => canon_obj t (obj_insert k (canon v) acc)
  end.

Lemma canon_obj_sorted m : forall acc,
  Forall (fun kv => canon (snd kv) = snd kv) m -> keys_sorted (map fst (acc ++ m)) = true ->
  canon_obj m acc = acc ++ m.
Proof.
  induction m as [|[k v] t IH]; intros acc HF Hs; [symmetry; apply app_nil_r|].
  inversion HF as [|kv l Hv Ht]; subst kv l. cbn [snd] in Hv.
  cbn [canon_obj]. rewrite Hv.
  rewrite map_app in Hs. cbn [map fst] in Hs.
  rewrite (obj_insert_last k v acc (keys_sorted_app_lt _ _ _ Hs)).
  rewrite (IH (acc ++ [(k, v)]) Ht).
  - rewrite <- app_assoc. reflexivity.
  - rewrite <- app_assoc, map_app. cbn [app map fst]. exact Hs.
Qed.

Theorem jsorted_canon v : jsorted v = true -> canon v = v.
Proof.
  induction v as [|b|z|raw|s|l IHl|m IHm] using jv_ind'; intros H; try reflexivity;
    cbn [jsorted] in H.
  - cbn [canon]. f_equal. rewrite forallb_forall in H. rewrite Forall_forall in IHl.
    rewrite <- (map_id l) at 2. apply map_ext_in. auto.
  - apply andb_true_iff in H as [Hk Hv]. change (canon (JObj m)) with (JObj (canon_obj m [])). f_equal.
    apply (canon_obj_sorted m []); [|exact Hk].
    rewrite forallb_forall in Hv. rewrite Forall_forall in *. auto.
Qed.

Corollary jsorted_jcanon v : jsorted v = true -> jcanon v = true.
Proof. intros H. apply jcanon_iff, jsorted_canon, H. Qed.

Print Assumptions parse_string_body_ser.
Print Assumptions take_digits_dec.
Print Assumptions parse_number_ser.
Print Assumptions pval_ser_rest.
Print Assumptions parse_json_ser.
Print Assumptions ser_no_ctrl.
Print Assumptions valid_utf8_app.
Print Assumptions valid_utf8_esc.
Print Assumptions ser_utf8.
Print Assumptions jv_eqb_eq.
Print Assumptions jsorted_canon.
