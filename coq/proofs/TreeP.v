(* TreeP.v — the cache directory is a tree in every state a history reaches: the root is not an entry, every entry's
   parent is a directory, first-level entries are directories.  This is what [clear] needs (RemoveP.RootShape) to leave an
   empty, usable cache; here it is shown, together with RetryP.Shape, to be kept by every step of the writes and removals
   a history is made of, so that the clause of C09 about clearing holds after any history. *)
From CC Require Import Bytes Sri Fs Prog Api Crash BytesP FsP ProgP StepsP IndexP WriteP CommitP RemoveP HistP LsHistP RetryP.
From Coq Require Import Lia.
Local Open Scope N_scope.

Definition Tree (g : fs) : Prop :=
  lookup g (InCache []) = None /\
  (forall p nd, lookup g (InCache p) = Some nd -> is_dir g (parent p) = true) /\
  (forall n nd, lookup g (InCache [n]) = Some nd -> nd = Dir).

Lemma parent_neq p : p <> [] -> parent p <> p.
Proof.
  intros Hp E. pose proof (@app_removelast_last name p [] Hp) as H. unfold parent in E. rewrite E in H.
  apply (f_equal (@List.length _)) in H. rewrite app_length in H. cbn in H. lia.
Qed.

Lemma is_dir_update_other g l n p : InCache p <> l -> is_dir (update g l n) p = is_dir g p.
Proof. intros Hne. unfold is_dir. destruct p; [reflexivity|]. rewrite lookup_update_neq by congruence. reflexivity. Qed.
Lemma is_dir_remove_other g l p : InCache p <> l -> is_dir (remove g l) p = is_dir g p.
Proof. intros Hne. unfold is_dir. destruct p; [reflexivity|]. rewrite lookup_remove_neq by congruence. reflexivity. Qed.

(* a node is added or replaced at [pl]: its parent is a directory, it is a directory itself if first-level or if it
   replaces a directory (so whatever hangs below [pl] still hangs below a directory) *)
Lemma tree_update g pl n :
  Tree g -> pl <> [] -> is_dir g (parent pl) = true -> (List.length pl = 1%nat -> n = Dir) ->
  (lookup g (InCache pl) = Some Dir -> n = Dir) -> Tree (update g (InCache pl) n).
Proof.
  intros [T1 [T2 T3]] Hpl Hpar H1 Hrep. split; [|split].
  - rewrite lookup_update_neq; [exact T1|]. intros E. inversion E. congruence.
  - intros p nd Hl. rewrite lookup_update in Hl. destruct (loc_eqb (InCache pl) (InCache p)) eqn:E.
    + apply loc_eqb_eq in E. inversion E; subst p. rewrite is_dir_update_other; [exact Hpar|]. intros X. inversion X as [X']. exact (parent_neq pl Hpl X').
    + pose proof (T2 p nd Hl) as Hd. destruct (loc_eq_dec (InCache (parent p)) (InCache pl)) as [X|X]; [|rewrite is_dir_update_other by exact X; exact Hd].
      inversion X as [X']. rewrite X' in *. destruct pl as [|y pl]; [contradiction|]. rewrite (Hrep (is_dir_lookup g y pl Hd)). apply is_dir_of_lookup, lookup_update_eq.
  - intros x nd Hl. rewrite lookup_update in Hl. destruct (loc_eqb (InCache pl) (InCache [x])) eqn:E; [|exact (T3 x nd Hl)].
    apply loc_eqb_eq in E. inversion E; subst pl. inversion Hl; subst nd. apply H1. reflexivity.
Qed.

Lemma tree_same g g' : Tree g -> (forall p, lookup g' (InCache p) = lookup g (InCache p)) -> Tree g'.
Proof.
  intros [T1 [T2 T3]] H. assert (forall p, is_dir g' p = is_dir g p) as Hd by (intros p; unfold is_dir; destruct p; [reflexivity|rewrite H; reflexivity]).
  split; [rewrite H; exact T1|]. split; [intros p nd Hl; rewrite H in Hl; rewrite Hd; exact (T2 p nd Hl)|intros x nd Hl; rewrite H in Hl; exact (T3 x nd Hl)].
Qed.

Definition deep (l : loc) : Prop := match l with InCache p => (2 <= List.length p)%nat | Ext _ => True end.

(* the two ways a step puts a node: it creates an entry below the first level (or outside the cache) where no directory
   is, or it rewrites a regular file *)
Lemma tree_put_deep g l n : Tree g -> deep l -> parent_ok g l = true -> lookup g l <> Some Dir -> Tree (update g l n).
Proof.
  intros Ht Hd Hp Hnd. destruct l as [pl|e]; [|apply (tree_same g); [exact Ht|intros p; apply lookup_update_neq; discriminate]].
  cbn [deep parent_ok] in *. apply tree_update; [exact Ht|intros ->; cbn in Hd; lia|exact Hp|intros E; rewrite E in Hd; lia|intros X; contradiction].
Qed.

Lemma tree_rewrite g l d n : Tree g -> lookup g l = Some (File d) -> Tree (update g l n).
Proof.
  intros Ht Hl. apply tree_put_deep; [exact Ht| | |rewrite Hl; discriminate]; destruct l as [pl|e]; try reflexivity; destruct Ht as [T1 [T2 T3]].
  - destruct pl as [|x [|y r]]; [congruence|discriminate (T3 x _ Hl)|cbn; lia].
  - exact (T2 pl _ Hl).
Qed.

Lemma tree_remove g l nd : Tree g -> lookup g l = Some nd -> nd <> Dir -> Tree (remove g l).
Proof.
  intros Ht Hl Hnd. destruct l as [pl|e]; [|apply (tree_same g); [exact Ht|intros p; apply lookup_remove_neq; discriminate]].
  destruct Ht as [T1 [T2 T3]]. split; [|split].
  - rewrite lookup_remove. destruct (loc_eqb _ _); [reflexivity|exact T1].
  - intros p nd' Hp. rewrite lookup_remove in Hp. destruct (loc_eqb (InCache pl) (InCache p)); [discriminate|].
    pose proof (T2 p nd' Hp) as Hd. rewrite is_dir_remove_other; [exact Hd|]. intros X. inversion X as [X']. rewrite X' in Hd.
    destruct pl as [|y pl]; [congruence|]. rewrite (is_dir_lookup g y pl Hd) in Hl. congruence.
  - intros x nd' Hp. rewrite lookup_remove in Hp. destruct (loc_eqb _ _); [discriminate|exact (T3 x nd' Hp)].
Qed.

Lemma is_prefix_app p q : is_prefix p (p ++ q) = true.
Proof. induction p as [|x p IH]; [reflexivity|]. cbn [app is_prefix]. rewrite bytes_eqb_refl. exact IH. Qed.
Lemma is_prefix_trans a b c : is_prefix a b = true -> is_prefix b c = true -> is_prefix a c = true.
Proof.
  revert b c. induction a as [|x a IH]; intros [|y b] [|z c] H1 H2; cbn [is_prefix] in *; try reflexivity; try discriminate.
  apply andb_true_iff in H1 as [E1 H1]. apply andb_true_iff in H2 as [E2 H2]. apply bytes_eqb_eq in E1, E2. subst.
  rewrite bytes_eqb_refl. exact (IH b c H1 H2).
Qed.
Lemma is_prefix_parent p : is_prefix (parent p) p = true.
Proof.
  unfold parent. induction p as [|x p IH]; [reflexivity|]. destruct p as [|y p]; [reflexivity|].
  change (removelast (x :: y :: p)) with (x :: removelast (y :: p)). cbn [is_prefix]. rewrite bytes_eqb_refl. exact IH.
Qed.

Lemma tree_rmtree g p0 : Tree g -> p0 <> [] -> Tree (filter (fun ln => negb (under p0 (fst ln))) g).
Proof.
  intros [T1 [T2 T3]] Hp0.
  assert (forall l, lookup (filter (fun ln => negb (under p0 (fst ln))) g) l = if negb (under p0 l) then lookup g l else None) as Hf
    by (intros l; apply (lookup_filter_key (fun l => negb (under p0 l)))).
  split; [|split].
  - rewrite Hf. destruct (negb (under p0 (InCache []))); [exact T1|reflexivity].
  - intros p nd Hl. rewrite Hf in Hl. destruct (under p0 (InCache p)) eqn:Eu; cbn [negb] in Hl; [discriminate|].
    pose proof (T2 p nd Hl) as Hd. unfold is_dir in *. destruct (parent p) as [|y r] eqn:Ep; [reflexivity|]. rewrite Hf.
    destruct (under p0 (InCache (y :: r))) eqn:Eu2; cbn [negb]; [|exact Hd].
    exfalso. cbn [under] in Eu, Eu2. rewrite <- Ep in Eu2. rewrite (is_prefix_trans p0 (parent p) p Eu2 (is_prefix_parent p)) in Eu. discriminate.
  - intros x nd Hl. rewrite Hf in Hl. destruct (negb (under p0 (InCache [x]))); [exact (T3 x nd Hl)|discriminate].
Qed.

Lemma parent_snoc (pre : path) x : parent (pre ++ [x]) = pre.
Proof. unfold parent. apply removelast_last. Qed.

Lemma tree_mkdirs g pre p :
  Tree g -> is_dir g pre = true -> Tree (snd (mkdirs g (prefixes_from pre p))).
Proof.
  revert g pre. induction p as [|x p IH]; intros g pre Ht Hd; cbn [prefixes_from mkdirs snd]; [exact Ht|].
  destruct (lookup g (InCache (pre ++ [x]))) as [[d| |t]|] eqn:El; cbn [snd]; try exact Ht.
  - apply IH; [exact Ht|apply is_dir_of_lookup; exact El].
  - apply IH; [|apply is_dir_of_lookup, lookup_update_eq].
    apply tree_update; auto; [destruct pre; discriminate|rewrite parent_snoc; exact Hd].
Qed.

Definition tstep (c : sys) : Prop :=
  match c with
  | MkdirAll p | RemoveDirAll p => p <> []
  | Rename s d => (exists x, s = InCache [bs "tmp"; x]) /\ deep d
  | CreateIfMissing l => deep l
  | Link _ d | SymlinkTo _ d | CopyFile _ d => exists e, d = Ext e
  | _ => True
  end.

Lemma creates_deep c l : tstep c -> creates c l -> deep l.
Proof.
  destruct c; cbn [tstep creates]; try contradiction; intros Hc Hl.
  3-5: destruct Hc as [e ->]; subst; exact I.
  - destruct Hl as [n ->]. cbn. lia.
  - subst. exact Hc.
Qed.

(* a node other than a directory moves to a place where one may be created *)
Lemma tree_move g s d n :
  Tree g -> lookup g s = Some n -> n <> Dir -> deep d -> parent_ok g d = true -> lookup g d <> Some Dir ->
  Tree (update (remove g s) d n).
Proof.
  intros Ht Hs Hn Hd Hp Hdd. apply tree_put_deep; [exact (tree_remove g s n Ht Hs Hn)|exact Hd| |].
  - destruct d as [pd|e]; [|reflexivity]. cbn [parent_ok] in *. rewrite is_dir_remove_other; [exact Hp|].
    intros <-. destruct (parent pd) as [|x p]; [rewrite (proj1 Ht) in Hs; discriminate|].
    rewrite (is_dir_lookup g x p Hp) in Hs. congruence.
  - rewrite lookup_remove. destruct (loc_eqb s d); [discriminate|exact Hdd].
Qed.

(* one case per form of [exec_change]; a rename moves a temp entry, which (Shape) is a regular file *)
Lemma tree_step c g : Shape g -> Tree g -> tstep c -> Tree (snd (exec c g)).
Proof.
  intros Hs Ht Hc. destruct (exec_change c g) as [|p ->|l d n Hl|l n Hl Hn Hp|l n Hl Hn|s d n -> Hl Hd Hp|p ->]; cbn [tstep] in Hc.
  - exact Ht.
  - apply tree_mkdirs; [exact Ht|reflexivity].
  - exact (tree_rewrite g l d n Ht Hl).
  - exact (tree_put_deep g l n Ht (creates_deep c l Hc Hl) Hp Hn).
  - exact (tree_remove g l n Ht Hl Hn).
  - destruct Hc as [[x ->] Hdeep]. apply tree_move; try assumption.
    destruct (proj1 (okn_tmpfile x n) (Hs _ _ Hl)) as [dd ->]. discriminate.
  - apply tree_rmtree; assumption.
Qed.

Definition ST (g : fs) : Prop := Shape g /\ Tree g.
Definition ststep (c : sys) : Prop := sstep c /\ tstep c.

Lemma st_step c g : ST g -> ststep c -> ST (snd (exec c g)).
Proof. intros [Hs Ht] [H1 H2]. split; [exact (proj1 (shape_step c g Hs H1))|exact (tree_step c g Hs Ht H2)]. Qed.

Lemma st_steps {A} (p : prog A) f : ST f -> steps_ok (fun c _ => ststep c) p f -> ST (snd (run p f)).
Proof. exact (run_invariant ST _ st_step p f). Qed.

Lemma st_run {A} (p : prog A) f : ST f -> all_steps ststep p -> ST (snd (run p f)).
Proof. intros H Hp. apply st_steps; [exact H|]. exact (all_steps_ok _ _ p (fun c _ Hc => Hc) Hp f). Qed.

Lemma st_empty : ST [].
Proof. split; [intros l n H; discriminate|]. split; [reflexivity|]. split; [intros p nd H; discriminate|intros n nd H; discriminate]. Qed.

Lemma open_step_ststep c : open_step c -> ststep c.
Proof. intros H. split; [exact (open_step_sstep c H)|]. destruct c; try exact I; try contradiction. cbn in H |- *. subst. discriminate. Qed.

Lemma tmp_step_ststep t c : tmpfile t -> tmp_step t c -> ststep c.
Proof. intros Ht H. split; [exact (tmp_step_sstep t c Ht H)|]. destruct c; try exact I; contradiction. Qed.

Lemma remove_step_ststep c : remove_step c -> ststep c.
Proof. destruct c; cbn; try contradiction; split; exact I. Qed.

Section Tr.
Variable hash : algo -> bytes -> bytes.
Hypothesis HL : HashLen hash.

Lemma publish_step_ststep t a d c : tmpfile t -> publish_step t (cpath hash a d) c -> ststep c.
Proof.
  intros Ht H. split; [exact (publish_step_sstep hash t a d c Ht H)|]. destruct c; try exact I; try contradiction; cbn in H |- *.
  - subst. discriminate.
  - destruct H as [-> ->]. split; [exact Ht|cbn; lia].
Qed.

Lemma index_step_ststep key c : index_step (bucket_path hash key) c -> ststep c.
Proof.
  intros H. split; [exact (index_step_sstep hash key c H)|]. destruct (bucket_path_shape hash key) as (x & y & z & E). rewrite E in H.
  destruct c; try exact I; try contradiction; cbn in H |- *; subst; [discriminate|cbn; lia].
Qed.

Lemma write_step_ststep a data key c f : write_step hash a data key c f -> ststep c.
Proof.
  intros [[H|[(t & Ht & [H|H])|(k & _ & H)]] _];
    eauto using open_step_ststep, tmp_step_ststep, publish_step_ststep, index_step_ststep.
Qed.

Lemma st_cop f o : ST f -> ST (c_run hash f o).
Proof.
  intros Hs. destruct o as [fl a key data now|fl key o cs now|fl a data|key now|a d|key]; cbn [c_run].
  - exact (st_steps _ f Hs (steps_ok_impl _ _ _ _ (write_step_ststep _ _ _) (oneshot_steps hash HL f fl (Some key) _ data now))).
  - exact (st_steps _ f Hs (steps_ok_impl _ _ _ _ (write_step_ststep _ _ _) (stream_write_steps hash HL f fl (Some key) o cs now))).
  - exact (st_steps _ f Hs (steps_ok_impl _ _ _ _ (write_step_ststep _ _ _) (oneshot_steps hash HL f fl None _ data 0))).
  - exact (st_run _ f Hs (all_steps_impl _ _ _ (index_step_ststep key) (delete_steps hash key now))).
  - exact (st_run _ f Hs (all_steps_impl _ _ _ remove_step_ststep (remove_hash_steps _))).
  - exact (st_run _ f Hs (all_steps_impl _ _ _ remove_step_ststep (remove_fully_steps hash key))).
Qed.

Theorem st_history (h : list cop) f0 : ST f0 -> ST (fold_left (c_run hash) h f0).
Proof. revert f0. induction h as [|o h IH]; intros f0 H; cbn [fold_left]; [exact H|]. apply IH. apply st_cop. exact H. Qed.

Lemma tree_rootshape g : Tree g -> RootShape g.
Proof.
  intros [T1 [T2 T3]]. split; [exact T1|]. split; [exact T3|].
  intros x p. induction p as [|y p IH] using rev_ind; intros nd Hl; [congruence|].
  pose proof (T2 _ _ Hl) as Hd. change (x :: p ++ [y]) with ((x :: p) ++ [y]) in Hd. rewrite parent_snoc in Hd.
  pose proof (is_dir_lookup g x p Hd) as Hp. exact (IH Dir Hp).
Qed.

Lemma nodup_history (h : list cop) f0 : NoDupKeys f0 -> NoDupKeys (fold_left (c_run hash) h f0).
Proof.
  revert f0. induction h as [|o h IH]; intros f0 H; cbn [fold_left]; [exact H|]. apply IH, nodup_cop, H.
Qed.

(* C09, the clause on clearing, after any history from a well-shaped tree: clear succeeds, nothing is left under the cache
   root, nothing outside is touched, and the result is a usable (well-shaped) cache again *)
Theorem clear_after (h : list cop) f0 :
  ST f0 -> NoDupKeys f0 ->
  let f := fold_left (c_run hash) h f0 in
  fst (run clear f) = Ok tt /\
  (forall p, lookup (snd (run clear f)) (InCache p) = None) /\
  (forall n, lookup (snd (run clear f)) (Ext n) = lookup f (Ext n)) /\
  CacheInv (snd (run clear f)).
Proof.
  intros Hs H0 f.
  assert (NoDupKeys f) as Hn by (apply nodup_history; exact H0).
  assert (RootShape f) as Hr by (apply tree_rootshape; exact (proj2 (st_history h f0 Hs))).
  destruct (clear_scope f Hn Hr) as (H1 & H2 & H3). exact (conj H1 (conj H2 (conj H3 (clear_usable f Hn Hr)))).
Qed.

Theorem clear_after_history (h : list cop) :
  let f := fold_left (c_run hash) h [] in
  fst (run clear f) = Ok tt /\
  (forall p, lookup (snd (run clear f)) (InCache p) = None) /\
  (forall n, lookup (snd (run clear f)) (Ext n) = lookup f (Ext n)) /\
  CacheInv (snd (run clear f)).
Proof. exact (clear_after h [] st_empty (NoDup_nil _)). Qed.

End Tr.
