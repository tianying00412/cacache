(* TotalP.v — no public call panics, hangs or gets stuck: from EVERY tree (any damage), for every argument with
   well-formed integrity values, every API program returns Ok or Err.  The model makes the panic sites of the code
   explicit (ssri to_hex / path slicing in [content_path], the empty-integrity index panic in [pick_algorithm]); this file
   shows none of them is reachable.  Each program is walked once, for ALL answers its steps can give ([fpost], any
   payload of the right kind or any errno): the answers of [exec] on a tree are among them, so are those of faulty runs. *)
From CC Require Import Bytes Sri Record Fs Prog Api Crash Sess BytesP CodecP ProgP StepsP ReadP WriteP CommitP.
From Coq Require Import Lia.
Local Open Scope N_scope.

Definition safe {A} (r : res A) : Prop := match r with Ok _ | Err _ => True | _ => False end.
Definition psafe {A} (p : prog (res A)) : Prop := forall f, safe (fst (run p f)).

Lemma psafe_bind_any {A B} (p : prog A) (g : A -> prog (res B)) : (forall a, psafe (g a)) -> psafe (bind p g).
Proof. intros Hg f. rewrite run_bind. destruct (run p f) as [a f1]. apply Hg. Qed.

Lemma psafe_lift_err {A B} (r : res A) : safe r -> (forall a, r <> Ok a) -> safe (@lift_err A B r).
Proof. destruct r; cbn; auto. intros _ H. exact (H a eq_refl). Qed.

Lemma mkdirs_shape f ps : match fst (mkdirs f ps) with ROk | RErr _ => True | _ => False end.
Proof.
  revert f. induction ps as [|q ps IH]; intros f; cbn [mkdirs fst]; [exact I|].
  destruct (lookup f (InCache q)) as [[d| |t]|]; cbn [fst]; try exact I; apply IH.
Qed.

(* every branch of [exec] answers the step's own kind of payload or an errno, and [Exists] never an errno *)
Lemma exec_shape c f : shape c (fst (exec c f)).
Proof.
  destruct c; unfold exec; [pose proof (mkdirs_shape f (prefixes p)); destruct (fst (mkdirs _ _)); assumption|..].
  all: repeat match goal with |- context [match ?x with _ => _ end] => destruct x end; exact I.
Qed.

Theorem fpost_run {A} (Q : A -> Prop) (p : prog A) f : fpost Q p -> Q (fst (run p f)).
Proof.
  revert f. induction p as [a|c k IH]; intros f Hp; cbn [run fpost] in *; [exact Hp|].
  pose proof (exec_shape c f) as Hs. destruct (exec c f) as [r f1]. cbn [fst] in Hs. apply IH. apply Hp. exact Hs.
Qed.

Lemma fpost_true {A} (p : prog A) : fpost (fun _ => True) p.
Proof. induction p as [a|c k IH]; cbn [fpost]; auto. Qed.

Lemma fpost_impl {A} (Q Q' : A -> Prop) (p : prog A) : (forall a, Q a -> Q' a) -> fpost Q p -> fpost Q' p.
Proof. intros H. induction p as [a|c k IH]; cbn [fpost]; [apply H|]. intros Hp r Hr. apply IH. apply Hp. exact Hr. Qed.

Lemma fpost_bind {A B} (Q : A -> Prop) (R : B -> Prop) (p : prog A) (g : A -> prog B) :
  fpost Q p -> (forall a, Q a -> fpost R (g a)) -> fpost R (bind p g).
Proof. induction p as [a|c k IH]; cbn [bind fpost]; [auto|]. intros Hp Hg r Hr. apply IH; [apply Hp; exact Hr|exact Hg]. Qed.

Lemma fpost_do_err {A} (Q : A -> Prop) c (pe : errno -> prog A) (p : prog A) :
  (forall e, fpost Q (pe e)) -> fpost Q p -> fpost Q (Do c (fun r => match r with RErr e => pe e | _ => p end)).
Proof. intros He Hp. cbn [fpost]. intros r _. destruct r; auto. Qed.

Lemma fpost_do_exists {A} (Q : A -> Prop) l (p q : prog A) :
  fpost Q p -> fpost Q q -> fpost Q (Do (Exists l) (fun r => match r with RBool true => p | _ => q end)).
Proof. intros Hp Hq. cbn [fpost]. intros r _. destruct r as [| |[|]| | | |]; auto. Qed.

Definition returns {A} (Q : A -> Prop) (r : res A) : Prop := match r with Ok a => Q a | Err _ => True | _ => False end.

Lemma returns_safe {A} (Q : A -> Prop) (r : res A) : returns Q r -> safe r.
Proof. destruct r; cbn; auto. Qed.

Lemma fpost_psafe {A} (Q : A -> Prop) (p : prog (res A)) : fpost (returns Q) p -> psafe p.
Proof. intros H f. exact (returns_safe Q _ (fpost_run _ p f H)). Qed.

Lemma fpost_returns_impl {A} (Q Q' : A -> Prop) (p : prog (res A)) :
  (forall a, Q a -> Q' a) -> fpost (returns Q) p -> fpost (returns Q') p.
Proof. intros H. apply fpost_impl. intros [a|e| | |]; cbn; auto. Qed.

Lemma fpost_rbind {A B} (Q : A -> Prop) (R : B -> Prop) (p : prog (res A)) (g : A -> prog (res B)) :
  fpost (returns Q) p -> (forall a, Q a -> fpost (returns R) (g a)) -> fpost (returns R) (rbind p g).
Proof.
  intros Hp Hg. unfold rbind. apply (fpost_bind (returns Q)); [exact Hp|]. intros [a|e| | |] Ha; cbn in Ha |- *; try contradiction; auto.
Qed.

(* what follows a call on a tree: the continuation is only met with Ok (and [Q]) or Err *)
Lemma run_returns {A B} (Q : A -> Prop) (P : B -> Prop) (p : prog (res A)) f (k : res A -> fs -> B) :
  fpost (returns Q) p -> (forall a f', Q a -> P (k (Ok a) f')) -> (forall e f', P (k (Err e) f')) ->
  P (let '(r, f') := run p f in k r f').
Proof.
  intros Hp Hok Herr. pose proof (fpost_run _ p f Hp) as H. destruct (run p f) as [r f']. cbn [fst] in H.
  destruct r; try contradiction; [apply Hok; exact H|apply Herr].
Qed.

Lemma step_ok_returns c : fpost (returns (fun _ : unit => True)) (step_ok c).
Proof. unfold step_ok. apply fpost_do_err; intros; exact I. Qed.

Lemma unlink_quiet_returns {A} (Q : A -> Prop) l (r : res A) : returns Q r -> fpost (returns Q) (unlink_quiet l r).
Proof. intros H. unfold unlink_quiet. cbn [fpost]. intros; exact H. Qed.

Section Total.
Variable hash : algo -> bytes -> bytes.
Hypothesis HL : HashLen hash.

Notation T := (fun _ => True).

(* well-formed integrity argument: what the property assumes of caller-supplied values *)
Definition wf_sri (i : integrity) : Prop := addressable i = true.

Lemma wf_sri_cpath i : wf_sri i -> exists p, content_path i = Some p.
Proof.
  unfold wf_sri, addressable, content_path. destruct (sri_to_hex i) as [[a h]|]; [|discriminate].
  intros H. apply N.leb_le in H. assert (lenN h <? 4 = false) as -> by (apply N.ltb_ge; exact H). eauto.
Qed.
Lemma wf_sri_pick i : wf_sri i -> exists a, pick_algorithm i = Some a.
Proof. unfold wf_sri, addressable, sri_to_hex. destruct i as [|h t]; [discriminate|]. cbn. eauto. Qed.

Lemma wf_sri_computed a d : wf_sri (sri_of hash a d).
Proof.
  unfold wf_sri, addressable, sri_of, sri_to_hex. cbn [h_digest h_algo]. rewrite b64_decode_encode.
  apply N.leb_le. rewrite (lenN_hex_encode ). specialize (HL a d). lia.
Qed.

Lemma fpost_with_cpath {A} (R : res A -> Prop) i (k : loc -> prog (res A)) :
  wf_sri i -> (forall l, fpost R (k l)) -> fpost R (with_cpath i k).
Proof. intros Hw Hk. unfold with_cpath. destruct (wf_sri_cpath i Hw) as [p ->]. apply Hk. Qed.

Lemma find_in_wf key es m : find_in key es = Some m -> wf_sri (m_sri m).
Proof.
  unfold find_in. assert (forall acc, (forall m0, acc = Some m0 -> wf_sri (m_sri m0)) ->
            fold_left (find_step key) es acc = Some m -> wf_sri (m_sri m)) as H.
  { induction es as [|e es IH]; intros acc Hacc; cbn [fold_left]; [apply Hacc|].
    apply IH. intros m0. unfold find_step. destruct (bytes_eqb (sm_key e) key); [|apply Hacc].
    destruct (sm_integrity e) as [t|]; [|discriminate].
    unfold parse_entry_sri. destruct (parse_sri t) as [i|]; [|apply Hacc].
    destruct (addressable i) eqn:Ea; [|apply Hacc]. intros H0. inversion H0; subst. exact Ea. }
  apply H. intros m0 H0. discriminate.
Qed.

Lemma bucket_entries_returns b : fpost (returns T) (bucket_entries hash b).
Proof.
  unfold bucket_entries. cbn [fpost]. intros r Hr. destruct r as [| | | | | |e]; cbn in Hr |- *; try contradiction; try exact I.
  destruct e; exact I.
Qed.

Definition found_wf (e : option meta) : Prop := forall m, e = Some m -> wf_sri (m_sri m).

(* a lookup returns only entries whose integrity is addressable, whatever bytes the bucket read returned *)
Theorem find_returns key : fpost (returns found_wf) (find hash key).
Proof. unfold find. apply (fpost_rbind T); [apply bucket_entries_returns|intros es _]. exact (find_in_wf key es). Qed.

Theorem insert_returns key o now : fpost (returns T) (insert hash key o now).
Proof. unfold insert. repeat (apply (fpost_rbind T); [apply step_ok_returns|intros _ _]). exact I. Qed.

Theorem delete_returns key now : fpost (returns T) (delete hash key now).
Proof. unfold delete. apply (fpost_rbind T); [apply insert_returns|intros; exact I]. Qed.

(* what the answers of the writer calls say, whatever the steps answered: a writer opened with [key] and [o] to which
   exactly [data] has been fed; a writer after one more chunk *)
Definition Qfed (key : option bytes) (o : wopts) (data : bytes) (w : wstate) : Prop :=
  tmpfile (w_tmp w) /\ w_data w = data /\ w_written w = lenN data /\ w_key w = key /\ w_opts w = o /\ w_algo w = algo_of o.
Definition Qchunk (w : wstate) (d : bytes) (w' : wstate) : Prop :=
  w_tmp w' = w_tmp w /\ w_data w' = w_data w ++ d /\ w_written w' = w_written w + lenN d /\
  w_key w' = w_key w /\ w_opts w' = w_opts w /\ w_algo w' = w_algo w.

Lemma Qfed_chunk key o data w d w' : Qfed key o data w -> Qchunk w d w' -> Qfed key o (data ++ d) w'.
Proof.
  intros (Ht & Hd & Hw & Hk & Ho & Ha) (Et & Ed & Ew & Ek & Eo & Ea). unfold Qfed. rewrite lenN_app.
  repeat split; congruence.
Qed.

Theorem open_writer_returns fl key o : fpost (returns (Qfed key o [])) (open_writer fl key o).
Proof.
  unfold open_writer. apply (fpost_rbind T); [apply step_ok_returns|intros _ _]. cbn [fpost]. intros r Hr.
  destruct r; cbn in Hr; try contradiction; try exact I.
  assert (forall m, Qfed key o [] (mkW key o (algo_of o) (InCache (tmp_dir ++ [n])) m 0 0 [])) as Q by (intros m; repeat split; exists n; reflexivity).
  destruct (content_size fl key o) as [sz|]; [|apply Q]. destruct ((1 <=? sz) && (sz <=? max_mmap)); [|apply Q].
  apply fpost_do_err; [intros _; apply unlink_quiet_returns; exact I|apply Q].
Qed.

Theorem write_chunk_returns w d : fpost (returns (Qchunk w d)) (write_chunk w d).
Proof.
  unfold write_chunk. destruct (w_map w) as [sz|].
  - destruct (w_pos w + lenN d <=? sz); repeat (apply (fpost_rbind T); [apply step_ok_returns|intros _ _]); repeat split.
  - apply (fpost_rbind T); [apply step_ok_returns|intros _ _]. repeat split.
Qed.

Theorem drop_writer_returns w : fpost (returns T) (drop_writer w).
Proof. apply unlink_quiet_returns. exact I. Qed.

Lemma trim_returns w : fpost (returns T) (trim w).
Proof. unfold trim. destruct (w_map w) as [sz|]; [destruct (w_pos w <? sz)|]; try exact I. apply step_ok_returns. Qed.

Theorem publish_returns w cp sri : fpost (returns (fun s => s = sri)) (publish w cp sri).
Proof.
  unfold publish. apply fpost_do_err; [intros _; apply unlink_quiet_returns; exact I|].
  apply fpost_do_err; [intros _|reflexivity].
  apply fpost_do_exists; apply unlink_quiet_returns; [reflexivity|exact I].
Qed.

Theorem close_writer_returns w : fpost (returns (fun s => s = sri_of hash (w_algo w) (w_data w))) (close_writer hash w).
Proof.
  unfold close_writer. destruct (wf_sri_cpath _ (wf_sri_computed (w_algo w) (w_data w))) as [cp ->].
  apply (fpost_bind (returns T)); [apply trim_returns|]. intros rt _.
  destruct rt; try (apply unlink_quiet_returns; exact I). apply publish_returns.
Qed.

Theorem commit_returns w now : fpost (returns T) (commit hash w now).
Proof.
  unfold commit. eapply fpost_rbind; [apply close_writer_returns|intros wsri _].
  destruct (o_sri (w_opts w)) as [d|]; [destruct (sri_matches d wsri)|]; try exact I.
  all: destruct (o_size (w_opts w)) as [s|]; [destruct (negb (s =? w_written w))|]; try exact I.
  all: destruct (w_key w); try exact I; apply insert_returns.
Qed.

Theorem oneshot_returns fl key o data now : fpost (returns T) (oneshot hash fl key o data now).
Proof.
  unfold oneshot. apply (fpost_rbind (Qfed key o [])); [apply open_writer_returns|intros w _].
  destruct data as [|b data]; [apply commit_returns|].
  apply (fpost_bind (returns (Qchunk w (b :: data)))); [apply write_chunk_returns|]. intros r Hr.
  destruct r; cbn in Hr; try contradiction; [apply commit_returns|apply unlink_quiet_returns; exact I].
Qed.

Lemma read_file_returns l : fpost (returns T) (read_file l).
Proof. unfold read_file. cbn [fpost]. intros r Hr. destruct r; cbn in Hr |- *; try contradiction; exact I. Qed.

Lemma check_res_safe i d : wf_sri i -> safe (check_res hash i d).
Proof.
  intros Hw. unfold check_res, sri_check. destruct (wf_sri_pick i Hw) as [a ->].
  destruct (existsb _ _); exact I.
Qed.

Lemma checked_returns {A} (Q : A -> Prop) i d (a : A) :
  wf_sri i -> (digest_ok hash i d -> Q a) ->
  fpost (returns Q) (match check_res hash i d with Ok _ => Ret (Ok a) | other => Ret (lift_err other) end).
Proof.
  intros Hw HQ. pose proof (check_res_safe i d Hw) as Hs.
  destruct (check_res hash i d) as [[]|e| | |] eqn:E; try contradiction; [|exact I].
  apply HQ, check_res_ok. exact E.
Qed.

(* a read returns Ok only with bytes that carry the requested digest — whatever bytes the file read returned *)
Theorem read_hash_returns i : wf_sri i -> fpost (returns (digest_ok hash i)) (read_hash hash i).
Proof.
  intros Hw. unfold read_hash. apply fpost_with_cpath; [exact Hw|intros cp].
  apply (fpost_rbind T); [apply read_file_returns|intros d _]. apply checked_returns; auto.
Qed.

Lemma by_key_returns {A} (Q : A -> Prop) key (k : integrity -> prog (res A)) :
  (forall i, wf_sri i -> fpost (returns Q) (k i)) -> fpost (returns Q) (by_key hash key k).
Proof.
  intros Hk. unfold by_key. apply (fpost_rbind found_wf); [apply find_returns|].
  intros [m|] Hm; [apply Hk, Hm; reflexivity|exact I].
Qed.

Theorem read_returns key : fpost (returns T) (read hash key).
Proof. apply by_key_returns. intros i Hi. apply (fpost_returns_impl (digest_ok hash i)); [auto|apply read_hash_returns; exact Hi]. Qed.

Theorem ropen_hash_returns i : wf_sri i -> fpost (returns (fun r => wf_sri (r_sri r))) (ropen_hash i).
Proof.
  intros Hw. unfold ropen_hash. apply fpost_with_cpath; [exact Hw|intros cp].
  apply (fpost_rbind T); [apply read_file_returns|intros d _]. exact Hw.
Qed.
Theorem ropen_returns key : fpost (returns (fun r => wf_sri (r_sri r))) (ropen hash key).
Proof. apply by_key_returns, ropen_hash_returns. Qed.

Theorem rcheck_total r : wf_sri (r_sri r) -> safe (rcheck hash r).
Proof.
  intros Hw. unfold rcheck. pose proof (check_res_safe (r_sri r) (r_seen r) Hw) as H.
  destruct (wf_sri_pick _ Hw) as [a ->]. destruct (check_res hash (r_sri r) (r_seen r)); try contradiction; exact I.
Qed.

Lemma verify_returns i cp : wf_sri i -> fpost (returns T) (verify hash i cp).
Proof.
  intros Hw. unfold verify. apply (fpost_rbind T); [apply read_file_returns|intros d _]. apply checked_returns; auto.
Qed.
Lemma xstep_returns x cp dst : fpost (returns T) (xstep x cp dst).
Proof. unfold xstep. cbn [fpost]. intros r _. destruct r; exact I. Qed.

Theorem extract_hash_returns x checked i dst : wf_sri i -> fpost (returns T) (extract_hash hash x checked i dst).
Proof.
  intros Hw. unfold extract_hash. apply fpost_with_cpath; [exact Hw|intros cp]. destruct checked; [|apply xstep_returns].
  apply (fpost_rbind T); [apply verify_returns; exact Hw|intros n _]. apply (fpost_rbind T); [apply xstep_returns|intros; exact I].
Qed.
Theorem extract_returns x checked key dst : fpost (returns T) (extract hash x checked key dst).
Proof. apply by_key_returns. intros i Hi. apply extract_hash_returns. exact Hi. Qed.

Theorem exists_hash_returns i : wf_sri i -> fpost (returns T) (exists_hash i).
Proof.
  intros Hw. unfold exists_hash. apply fpost_with_cpath; [exact Hw|intros cp]. cbn [fpost]. intros r Hr.
  destruct r; cbn in Hr |- *; try contradiction; exact I.
Qed.

Theorem remove_hash_returns i : wf_sri i -> fpost (returns T) (remove_hash i).
Proof. intros Hw. unfold remove_hash. apply fpost_with_cpath; [exact Hw|intros; apply step_ok_returns]. Qed.

Theorem remove_fully_returns key : fpost (returns T) (remove_fully hash key).
Proof.
  unfold remove_fully. apply (fpost_rbind found_wf); [apply find_returns|intros e He].
  apply (fpost_rbind T); [|intros; apply step_ok_returns]. destruct e as [m|]; [|exact I].
  apply fpost_with_cpath; [apply He; reflexivity|intros l].
  unfold unlink_if_present. cbn [fpost]. intros r _. destruct r as [| | | | | |[]]; exact I.
Qed.

Lemma remove_all_returns ls : fpost (returns T) (remove_all ls).
Proof.
  induction ls as [|[p|e] ls IH]; [exact I| |exact IH].
  cbn [remove_all]. apply (fpost_rbind T); [apply step_ok_returns|intros _ _; exact IH].
Qed.

Theorem clear_returns : fpost (returns T) clear.
Proof.
  unfold clear. cbn [fpost]. intros r Hr. destruct r; cbn in Hr |- *; try contradiction; try exact I. apply remove_all_returns.
Qed.

Theorem ls_returns : fpost (returns T) (ls hash).
Proof.
  unfold ls. cbn [fpost]. intros r Hr. destruct r; cbn in Hr |- *; try contradiction; try exact I.
  apply (fpost_bind T); [apply fpost_true|intros; exact I].
Qed.

Theorem open_linker_returns plain key o target : fpost (returns T) (open_linker plain key o target).
Proof. unfold open_linker. apply (fpost_rbind T); [apply read_file_returns|intros; exact I]. Qed.

Theorem commit_linker_returns l now : fpost (returns T) (commit_linker hash l now).
Proof.
  unfold commit_linker. destruct (wf_sri_cpath _ (wf_sri_computed (l_algo l) (l_seen l ++ l_rest l))) as [cp ->].
  apply (fpost_rbind T); [apply step_ok_returns|intros _ _].
  apply fpost_do_err; [intros _; apply fpost_do_exists; [|exact I]|].
  all: destruct (o_sri (l_opts l)) as [d|]; [destruct (sri_matches d _)|]; try exact I.
  all: destruct (o_size (l_opts l)) as [s|]; [destruct (negb (s =? _))|]; try exact I.
  all: destruct (l_key l); try exact I; apply insert_returns.
Qed.

Theorem link_to_returns key target now : fpost (returns T) (link_to hash key target now).
Proof. unfold link_to. apply (fpost_rbind T); [apply open_linker_returns|intros; apply commit_linker_returns]. Qed.

Definition wf_op (o : op) : Prop :=
  match o with
  | OReadHash _ i | OExists _ i | ORemoveHash _ i => wf_sri i
  | OROpen _ _ (ByHash i) => wf_sri i
  | OExtract _ _ _ (ByHash i) _ => wf_sri i
  | _ => True
  end.
Definition sinv (s : sstate) : Prop := forall h r, hget h (s_r s) = Some r -> wf_sri (r_sri r).
Definition osafe (o : outcome) : Prop := match o with Res r => safe r | BadArg => True end.

(* what [step_total] says of one step.  [sinv] reads nothing of the state but [s_r]: on a state with the same reader
   table (another tree, other writers, linkers or pending answers) it is the same proposition *)
Definition fine (os : outcome * sstate) : Prop := osafe (fst os) /\ sinv (snd os).

Lemma safe_rmap {A B} (g : A -> B) r : safe r -> safe (rmap g r).
Proof. destruct r; exact (fun x => x). Qed.

Lemma fine_runv s : sinv s -> forall A (Q : A -> Prop) (p : prog (res A)) g, fpost (returns Q) p -> fine (runv s p g).
Proof. intros Hs A Q p g Hp. unfold runv. apply (run_returns Q fine); [exact Hp| |]; intros; (split; [exact I|exact Hs]). Qed.

Lemma fine_hget {A} s h (l : list (N * A)) (k : A -> outcome * sstate) :
  sinv s -> (forall a, hget h l = Some a -> fine (k a)) -> fine (match hget h l with Some a => k a | None => (BadArg, s) end).
Proof. intros Hs Hk. destruct (hget h l) as [a|]; [apply Hk; reflexivity|split; [exact I|exact Hs]]. Qed.

Lemma hget_hset {A} h h' (v : A) l : hget h (hset h' v l) = if N.eqb h' h then Some v else hget h (hdel h' l).
Proof. reflexivity. Qed.
Lemma hget_hdel {A} h h' (l : list (N * A)) r : hget h (hdel h' l) = Some r -> h <> h' /\ hget h l = Some r.
Proof.
  induction l as [|[k v] l IH]; cbn [hdel hget]; [discriminate|].
  destruct (N.eqb_spec k h') as [->|Hk]; cbn [hget].
  - intros H. destruct (IH H) as [Hne Hg]. split; [exact Hne|].
    destruct (N.eqb_spec h' h) as [<-|_]; [contradiction Hne; reflexivity|exact Hg].
  - destruct (N.eqb_spec k h) as [->|_]; [|exact IH]. intros H. split; [exact Hk|exact H].
Qed.

Lemma sinv_hset s r rs : sinv s -> wf_sri (r_sri rs) -> forall f, sinv (mkS s f (s_w s) (hset r rs (s_r s))).
Proof.
  intros Hs Hw f h r0. unfold mkS. cbn [s_r]. rewrite hget_hset. destruct (N.eqb r h); [intros H; inversion H; subst; exact Hw|].
  intros H. apply hget_hdel in H. exact (Hs _ _ (proj2 H)).
Qed.
Lemma sinv_hdel s r : sinv s -> forall f, sinv (mkS s f (s_w s) (hdel r (s_r s))).
Proof. intros Hs f h r0. unfold mkS. cbn [s_r]. intros H. apply hget_hdel in H. exact (Hs _ _ (proj2 H)). Qed.

(* chunks through writers, with or without a pending answer of an abandoned write; [clear_p] and [ack] leave [s_r] alone *)
Lemma plain_chunk_fine s w ws d : sinv s -> fine (plain_chunk s w ws d).
Proof.
  intros Hs. unfold plain_chunk. apply (run_returns (Qchunk ws d) fine); [apply write_chunk_returns| |]; intros; (split; [exact I|exact Hs]).
Qed.
Lemma start_abandoned_fine s w ws d : sinv s -> fine (start_abandoned s w ws d).
Proof.
  intros Hs. unfold start_abandoned. apply (run_returns (Qchunk ws d) fine); [apply write_chunk_returns| |]; intros; (split; [exact I|exact Hs]).
Qed.
Lemma write1_pending_fine s w ws p d : sinv s -> fine (write1_pending s w ws p d).
Proof.
  intros Hs. unfold write1_pending. destruct p as [n|]; [|split; [exact I|exact Hs]].
  destruct (n <=? lenN d); [split; [exact I|exact Hs]|]. apply plain_chunk_fine. exact Hs.
Qed.
Lemma write_all_pending_fine s w ws p d : sinv s -> fine (write_all_pending s w ws p d).
Proof.
  intros Hs. unfold write_all_pending. destruct d as [|b d]; [split; [exact I|exact Hs]|].
  destruct p as [n|]; [|split; [exact I|exact Hs]].
  destruct (n <=? lenN (b :: d)); [|apply plain_chunk_fine; exact Hs].
  destruct (n =? 0); [split; [exact I|exact Hs]|].
  destruct (dropN n (b :: d)) as [|b' rest]; [split; [exact I|exact Hs]|].
  destruct (plain_chunk_fine (ack (clear_p s w) w ws n) w (with_written ws (w_written ws + n)) (b' :: rest) Hs) as [H1 H2].
  destruct (plain_chunk (ack (clear_p s w) w ws n) w (with_written ws (w_written ws + n)) (b' :: rest)) as [o s3].
  split; [|exact H2]. destruct o as [[v|e| | |]|]; try exact I; exact H1.
Qed.

Theorem step_total s o now :
  sinv s -> wf_op o -> osafe (fst (step hash s o now)) /\ sinv (snd (step hash s o now)).
Proof.
  intros Hs Hw. change (fine (step hash s o now)). pose proof (fine_runv s Hs) as Hrunv.
  destruct o; cbn [step wf_op] in *.
  - eapply Hrunv, oneshot_returns.
  - eapply Hrunv, oneshot_returns.
  - apply (run_returns (Qfed key o []) fine); [apply open_writer_returns| |]; intros; (split; [exact I|exact Hs]).
  - apply fine_hget; [exact Hs|intros ws _].
    destruct (hget w (s_p s)) as [p|]; [apply write_all_pending_fine|apply plain_chunk_fine]; exact Hs.
  - apply fine_hget; [exact Hs|intros ws _].
    apply (run_returns T fine); [apply commit_returns| |]; intros; (split; [exact I|exact Hs]).
  - apply fine_hget; [exact Hs|intros ws _]. destruct (run (drop_writer ws) (s_fs s)) as [r f]. split; [exact I|exact Hs].
  - eapply Hrunv, insert_returns.
  - eapply Hrunv, delete_returns.
  - eapply Hrunv, find_returns.
  - eapply Hrunv, read_returns.
  - eapply Hrunv, read_hash_returns. exact Hw.
  - apply (run_returns (fun rs => wf_sri (r_sri rs)) fine).
    + destruct b; [apply ropen_returns|apply ropen_hash_returns; exact Hw].
    + intros rs f Hrs. split; [exact I|apply sinv_hset; assumption].
    + intros e f. split; [exact I|exact Hs].
  - apply fine_hget; [exact Hs|intros rs E]. split; [exact I|]. apply sinv_hset; [exact Hs|exact (Hs _ _ E)].
  - apply fine_hget; [exact Hs|intros rs E]. split; [exact I|]. apply sinv_hset; [exact Hs|exact (Hs _ _ E)].
  - apply fine_hget; [exact Hs|intros rs E].
    split; [apply safe_rmap, rcheck_total; exact (Hs _ _ E)|apply sinv_hdel; exact Hs].
  - apply fine_hget; [exact Hs|intros rs _]. split; [exact I|apply sinv_hdel; exact Hs].
  - apply (Hrunv _ T). destruct b; [apply extract_returns|apply extract_hash_returns; exact Hw].
  - eapply Hrunv, exists_hash_returns. exact Hw.
  - eapply Hrunv, delete_returns.
  - eapply Hrunv, remove_hash_returns. exact Hw.
  - eapply Hrunv, remove_fully_returns.
  - eapply Hrunv, clear_returns.
  - eapply Hrunv, ls_returns.
  - eapply Hrunv, link_to_returns.
  - apply (run_returns T fine); [apply open_linker_returns| |]; intros; (split; [exact I|exact Hs]).
  - apply fine_hget; [exact Hs|intros ls _]. split; [exact I|exact Hs].
  - apply fine_hget; [exact Hs|intros ls _].
    apply (run_returns T fine); [apply commit_linker_returns| |]; intros; (split; [exact I|exact Hs]).
  - apply fine_hget; [exact Hs|intros ls _]. split; [exact I|exact Hs].
  - apply fine_hget; [exact Hs|intros ws _].
    destruct (hget w (s_p s)) as [[n|]|]; [destruct (n <=? lenN d)| |]; try (split; [exact I|exact Hs]);
      apply start_abandoned_fine; exact Hs.
  - apply fine_hget; [exact Hs|intros ws _].
    destruct (hget w (s_p s)) as [p|]; [apply write1_pending_fine|apply plain_chunk_fine]; exact Hs.
  - split; [exact I|exact Hs].
  - split; [exact I|exact Hs].
  - split; [exact I|exact Hs].
  - split; [exact I|exact Hs].
Qed.

(* every call of every program: whatever the sequence, including damage steps between calls *)
Theorem run_ops_total ops : forall s i, sinv s -> Forall wf_op ops -> Forall osafe (fst (run_ops hash s ops i)).
Proof.
  induction ops as [|o ops IH]; intros s i Hs Hw; cbn [run_ops]; [constructor|].
  inversion Hw as [|? ? Ho Hops]; subst. destruct (step_total s o (pseudo_now i) Hs Ho) as [H1 H2].
  destruct (step hash s o (pseudo_now i)) as [r s']. cbn [fst snd] in H1, H2.
  specialize (IH s' (i + 1) H2 Hops). destruct (run_ops hash s' ops (i + 1)) as [rs s'']. cbn [fst] in *.
  constructor; assumption.
Qed.

End Total.
