(* ConcWriteP.v — C07, unbounded, whole writes: any number of concurrent keyed one-shot writers and tombstone removers, any
   interleaving of their steps, from any tree satisfying the cache invariant: no step fails, every writer returns the
   address of its data, which is completely stored, no temp file remains, and the index is that of the serial run in the
   order of the append steps — provided distinct data have distinct content paths (a theorem cannot exclude collisions).
   Proof: a pool invariant ([PInvWd]: every thread in one of nine stages [wst]), one rule for what a step has to show to
   keep it ([pool_step]) and one walk through the stages ([wst_step]); in its index phase a thread is one of ConcIdxP. *)
From CC Require Import Bytes Sri Fs Prog Api Conc FsP StepsP IndexP WriteP CommitP CrashIdxP KeepP FormatP ConcP
  ConcIdxP.
From Coq Require Import Lia Permutation.
Local Open Scope N_scope.

Definition nxt {A} (p : prog A) (r : ret) : prog A := match p with Do _ k => k r | Ret a => Ret a end.
Definition head {A} (p : prog A) : option sys := match p with Do c _ => Some c | Ret _ => None end.

Lemma head_nxt {A} (p : prog A) c k : p = Do c k -> forall r, k r = nxt p r.
Proof. intros -> r. reflexivity. Qed.

Lemma do_eq {A} (p : prog A) c k c' : p = Do c k -> head p = Some c' -> c = c' /\ forall r, k r = nxt p r.
Proof. intros -> [= <-]. split; reflexivity. Qed.

Section CW.
Variable hash : algo -> bytes -> bytes.
Hypothesis HL : HashLen hash.

(* a thread: a keyed one-shot writer, or (ws_rm) a tombstone remover of a key *)
Record wspec := mkWs { ws_rm : bool; ws_a : algo; ws_key : bytes; ws_data : bytes; ws_now : N }.

Definition wprog (x : wspec) : prog (res integrity) :=
  if ws_rm x then insert hash (ws_key x) wopts0 (ws_now x)        (* remove = the index insert of a tombstone *)
  else write hash Sync (ws_a x) (ws_key x) (ws_data x) (ws_now x).
Definition x_sri (x : wspec) : integrity := sri_of hash (ws_a x) (ws_data x).
Definition x_cp (x : wspec) : path := cpath hash (ws_a x) (ws_data x).
Definition x_o' (x : wspec) : wopts := mkWopts (Some (ws_a x)) (Some (x_sri x)) (Some (lenN (ws_data x))) None None None.
Definition x_hop (x : wspec) : hop := HIns (ws_key x) (if ws_rm x then wopts0 else x_o' x) (ws_now x).
Definition x_res (x : wspec) : integrity := if ws_rm x then deadbeef else x_sri x.
(* what a thread that is past its content phase relies on: its content is stored (writers only) *)
Definition content_fact (x : wspec) (f : fs) : Prop :=
  ws_rm x = false -> lookup f (InCache (x_cp x)) = Some (File (ws_data x)).
Definition x_tmp (n : name) : loc := InCache (tmp_dir ++ [n]).
Definition dw : wspec := mkWs false Sha256 [] [] 0.
Definition coll_free (ws : list wspec) : Prop :=
  forall x y, In x ws -> In y ws -> ws_rm x = false -> ws_rm y = false -> x_cp x = x_cp y -> ws_data x = ws_data y.

(* commit with the content path already computed *)
Definition close' (cp : path) (w : wstate) : prog (res integrity) :=
  bind (trim w) (fun rt =>
    match rt with
    | Ok _ => publish w cp (sri_of hash (w_algo w) (w_data w))
    | _ => unlink_quiet (w_tmp w) (Err EIoErr)
    end).

Lemma close_writer_close' w :
  close_writer hash w = close' (cpath hash (w_algo w) (w_data w)) w.
Proof. unfold close_writer, close'. rewrite (content_path_computed hash _ _ HL). reflexivity. Qed.

(* the stages of one writer, as explicit program terms *)
Definition A0 (x : wspec) : prog (res integrity) := write hash Sync (ws_a x) (ws_key x) (ws_data x) (ws_now x).
Definition A1 (x : wspec) : prog (res integrity) := nxt (A0 x) ROk.
Definition A2 (x : wspec) (n : name) : prog (res integrity) := nxt (A1 x) (RName n).

Lemma A0_head x : head (A0 x) = Some (MkdirAll tmp_dir).
Proof. reflexivity. Qed.
Lemma A1_head x : head (A1 x) = Some CreateTmp.
Proof. reflexivity. Qed.

(* the writer state when its commit starts: all data in the temp file *)
Definition x_w (x : wspec) (n : name) : wstate :=
  mkW (Some (ws_key x)) (mkWopts (Some (ws_a x)) None None None None None) (ws_a x) (x_tmp n) None 0 (lenN (ws_data x)) (ws_data x).

Definition B0 (x : wspec) (n : name) : prog (res integrity) := commit hash (x_w x n) (ws_now x).

(* after CreateTmp: either straight to commit (empty data) or one append to the temp file, then commit *)
Lemma A2_empty x n : ws_data x = [] -> A2 x n = B0 x n.
Proof. intros E. unfold A2, A1, A0, write, oneshot, B0, x_w. rewrite E. reflexivity. Qed.

Lemma A2_data x n : ws_data x <> [] ->
  head (A2 x n) = Some (WriteAppend (x_tmp n) (ws_data x)) /\ nxt (A2 x n) (RNum (lenN (ws_data x))) = B0 x n.
Proof.
  intros Hne. unfold A2, A1, A0, write, oneshot, B0, x_w. destruct (ws_data x) as [|b d] eqn:E; [contradiction|].
  split; reflexivity.
Qed.

(* commit = mkdir -p of the content directory, rename, then the index insert *)
Definition B0' (x : wspec) (n : name) : prog (res integrity) :=
  rbind (close' (x_cp x) (x_w x n))
        (fun wsri => insert hash (ws_key x) (mkWopts (Some (ws_a x)) (Some wsri) (Some (lenN (ws_data x))) None None None) (ws_now x)).
Definition B1 (x : wspec) (n : name) : prog (res integrity) := nxt (B0' x n) ROk.
Definition I0 (x : wspec) : prog (res integrity) := seq_prog (hop_steps hash (x_hop x)) (x_res x).
Definition I1 (x : wspec) : prog (res integrity) := seq_prog (tl (hop_steps hash (x_hop x))) (x_res x).
Definition I2 (x : wspec) : prog (res integrity) := seq_prog (tl (tl (hop_steps hash (x_hop x)))) (x_res x).

Lemma B0_B0' x n : B0 x n = B0' x n.
Proof. unfold B0, B0', commit. rewrite close_writer_close'. reflexivity. Qed.
Lemma B0'_head x n : head (B0' x n) = Some (MkdirAll (parent (x_cp x))).
Proof. reflexivity. Qed.
Lemma B1_head x n : head (B1 x n) = Some (Rename (x_tmp n) (InCache (x_cp x))).
Proof. reflexivity. Qed.
Lemma B1_next x n : ws_rm x = false -> nxt (B1 x n) ROk = I0 x.
Proof. intros E. unfold I0, x_hop, x_res. rewrite E. reflexivity. Qed.
Lemma wprog_writer x : ws_rm x = false -> wprog x = A0 x.
Proof. intros E. unfold wprog. rewrite E. reflexivity. Qed.
Lemma wprog_remover x : ws_rm x = true -> wprog x = I0 x.
Proof. intros E. unfold wprog, I0, x_hop, x_res. rewrite E. reflexivity. Qed.

(* where a thread stands: the program it has left, with what its next step needs of the tree; the flag says that its
   record is appended, the name is the temp file it owns *)
Inductive wst (x : wspec) (f : fs) : prog (res integrity) -> bool -> option name -> Prop :=
| W0 : ws_rm x = false -> wst x f (A0 x) false None
| W1 : ws_rm x = false -> is_dir f tmp_dir = true -> wst x f (A1 x) false None
| W2 n : ws_rm x = false -> lookup f (x_tmp n) = Some (File []) -> ws_data x <> [] -> wst x f (A2 x n) false (Some n)
| W3 n : ws_rm x = false -> lookup f (x_tmp n) = Some (File (ws_data x)) -> wst x f (B0' x n) false (Some n)
| W4 n : ws_rm x = false -> lookup f (x_tmp n) = Some (File (ws_data x)) -> is_dir f (parent (x_cp x)) = true -> wst x f (B1 x n) false (Some n)
| W5 : content_fact x f -> wst x f (I0 x) false None
| W6 : content_fact x f -> is_dir f (parent (hb hash (x_hop x))) = true -> wst x f (I1 x) false None
| W7 d : content_fact x f -> lookup f (InCache (hb hash (x_hop x))) = Some (File d) -> wst x f (I2 x) false None
| W8 : content_fact x f -> wst x f (Ret (Ok (x_res x))) true None.

Lemma wst_ret x f r fl own : wst x f (Ret r) fl own -> r = Ok (x_res x) /\ fl = true /\ content_fact x f.
Proof.
  intros H. remember (Ret r) as p eqn:Ep. destruct H as [| |n _ _ Hne| | | | | |Hcp]; try discriminate Ep.
  - destruct (A2_data x n Hne) as [Hh _]. rewrite Ep in Hh. discriminate Hh.
  - injection Ep as <-. auto.
Qed.

Lemma wst_done x f p own : wst x f p true own -> content_fact x f.
Proof. intros H. remember true as fl eqn:E. destruct H; try discriminate E; assumption. Qed.

Lemma wst_own_file x f p fl n : wst x f p fl (Some n) -> exists d, lookup f (x_tmp n) = Some (File d).
Proof. intros H. remember (Some n) as own eqn:E. destruct H; inversion E; subst; eauto. Qed.

(* what a thread needs of the others: nothing it relies on is undone *)
Definition stable (f g : fs) (x : wspec) (own : option name) : Prop :=
  mono f g /\ (content_fact x f -> content_fact x g) /\ (forall n, own = Some n -> lookup g (x_tmp n) = lookup f (x_tmp n)).

Lemma wst_stable x f g p fl own : stable f g x own -> wst x f p fl own -> wst x g p fl own.
Proof.
  intros [[Hd Hb] [Hc Ho]] Hs. destruct Hs as [Hw|Hw H|n Hw H Hne|n Hw H|n Hw H H2|H|H H2|d H H2|H].
  - constructor. exact Hw.
  - constructor; [exact Hw|apply Hd; exact H].
  - constructor; [exact Hw|rewrite (Ho n eq_refl); exact H|exact Hne].
  - constructor; [exact Hw|rewrite (Ho n eq_refl); exact H].
  - constructor; [exact Hw|rewrite (Ho n eq_refl); exact H|apply Hd; exact H2].
  - constructor. apply Hc. exact H.
  - constructor; [apply Hc; exact H|apply Hd; exact H2].
  - destruct (Hb _ (hb_shape hash (x_hop x)) d H2) as [d' Hd']. exact (W7 x g d' (Hc H) Hd').
  - constructor. apply Hc. exact H.
Qed.

(* the index phase is the thread of ConcIdxP for the writer's record, returning its address *)
Lemma wst_index x f p fl : content_fact x f -> stage hash (x_res x) (x_hop x) f p fl -> wst x f p fl None.
Proof. intros Hc Hs. destruct Hs as [|Hd|d Hd|]; [exact (W5 x f Hc)|exact (W6 x f Hc Hd)|exact (W7 x f d Hc Hd)|exact (W8 x f Hc)]. Qed.

Lemma x_tmp_tmp n : is_tmp (x_tmp n).
Proof. right. exists n. reflexivity. Qed.
Lemma bshape_index b : bshape b -> is_index (InCache b).
Proof. intros [a [c [d ->]]]. eexists. reflexivity. Qed.

Lemma tmp_loc_not_index n : ~ is_index (x_tmp n).
Proof. intros H. exact (index_not_tmp _ H (x_tmp_tmp n)). Qed.
Lemma x_cp_not_index x : ~ is_index (InCache (x_cp x)).
Proof. intros H. exact (index_not_content _ H (cpath_content hash _ _)). Qed.
Lemma tmp_ne_cp n x : x_tmp n <> InCache (x_cp x).
Proof. intros E. apply (content_not_tmp (x_tmp n)); [rewrite E; apply cpath_content|apply x_tmp_tmp]. Qed.

Lemma frame_inv f g :
  (forall l, is_index l -> lookup g l = lookup f l) -> IndexInv f -> IndexInv g.
Proof. intros H Hi. exact (IndexInv_frame f g Hi H). Qed.

(* [x] with owned temp name [own0] steps from [f] to [g]: a location keeps its node, or is a new directory (never in the
   index area), or is a temp file, x's own or a new one, or is x's content path, which then holds x's data *)
Definition quiet (x : wspec) (own0 : option name) (f g : fs) : Prop :=
  forall l, lookup g l = lookup f l \/
    (lookup f l = None /\ lookup g l = Some Dir /\ ~ is_index l) \/
    (exists n, l = x_tmp n /\ (own0 = Some n \/ lookup f l = None)) \/
    (l = InCache (x_cp x) /\ lookup f l <> Some Dir /\ lookup g l = Some (File (ws_data x))).

Lemma quiet_index x own0 f g l : quiet x own0 f g -> is_index l -> lookup g l = lookup f l.
Proof.
  intros Hq Hl. destruct (Hq l) as [E|[(_ & _ & N)|[(n & E & _)|[E _]]]]; [exact E|contradiction|exfalso|exfalso]; subst l.
  - exact (tmp_loc_not_index n Hl).
  - exact (x_cp_not_index x Hl).
Qed.

(* the others are not disturbed: their temp files have other names, and whoever relies on the same content path has,
   without collisions, the same data *)
Lemma stable_quiet ws x own0 f g y own :
  coll_free ws -> In x ws -> In y ws -> ws_rm x = false -> quiet x own0 f g ->
  (forall n, own0 = Some n -> lookup f (x_tmp n) <> Some Dir) ->
  (forall a, own = Some a -> own0 <> Some a /\ lookup f (x_tmp a) <> None) ->
  stable f g y own.
Proof.
  intros Hcf Hx Hy Hw Hq Hown0 Hown.
  assert (forall l nd, lookup f l = Some nd -> lookup g l = Some nd \/ (exists n, own0 = Some n /\ l = x_tmp n) \/
            (l = InCache (x_cp x) /\ nd <> Dir /\ lookup g l = Some (File (ws_data x)))) as Hkeep.
  { intros l nd H. destruct (Hq l) as [E|[[E _]|[(n & -> & [E|E])|[E1 [E2 E3]]]]]; [left; congruence|congruence|eauto|congruence|].
    right. right. split; [exact E1|]. split; [congruence|exact E3]. }
  split; [split|split].
  - intros p Hp. destruct p as [|a p]; [reflexivity|]. apply is_dir_lookup in Hp. apply is_dir_of_lookup.
    destruct (Hkeep _ _ Hp) as [E|[[n [E El]]|[_ [E _]]]]; [exact E|rewrite El in Hp; exfalso; exact (Hown0 n E Hp)|congruence].
  - intros b Hb d Hd. exists d. rewrite (quiet_index x own0 f g _ Hq (bshape_index b Hb)). exact Hd.
  - intros Hc Hwy. specialize (Hc Hwy). destruct (Hkeep _ _ Hc) as [E|[[n [_ E]]|[E [_ Eg]]]]; [exact E|exfalso; exact (tmp_ne_cp n y (eq_sym E))|].
    assert (x_cp x = x_cp y) as E' by congruence. rewrite Eg, (Hcf x y Hx Hy Hw Hwy E'). reflexivity.
  - intros a Ha. destruct (Hown a Ha) as [Hne Hex]. destruct (lookup f (x_tmp a)) as [nd|] eqn:E; [|congruence].
    destruct (Hkeep _ _ E) as [E'|[[n [En El]]|[El _]]]; [exact E'|exfalso|exfalso; exact (tmp_ne_cp a x El)].
    inversion El. subst n. exact (Hne En).
Qed.

Lemma s_mkdir x own0 f p :
  ContentShape f -> TmpShape f -> p <> [] ->
  (forall q, In q (prefixes p) -> q = tmp_dir \/ exists r, q = content_dir :: r /\ (List.length r <= 3)%nat) ->
  let g := snd (exec (MkdirAll p) f) in
  fst (exec (MkdirAll p) f) = ROk /\ is_dir g p = true /\ ContentShape g /\ TmpShape g /\ quiet x own0 f g.
Proof.
  intros Hc Ht Hne Hpre g.
  destruct (mkdirs_spec f (prefixes p)) as [Hr Hl1].
  { intros q Hq. destruct (Hpre q Hq) as [->|(r & -> & Hr)]; [exact Ht|]. unfold dir_or_absent.
    destruct (lookup f (InCache (content_dir :: r))) as [nd|] eqn:E; [right|left; reflexivity]. rewrite (proj1 (Hc r nd E) Hr). reflexivity. }
  (* whatever is new is a directory at one of the prefixes *)
  assert (forall l, lookup g l = lookup f l \/ lookup f l = None /\ lookup g l = Some Dir /\
            (l = InCache tmp_dir \/ exists r, l = InCache (content_dir :: r) /\ (List.length r <= 3)%nat)) as Heff.
  { intros l. destruct (mkdirs_effect f (prefixes p) g l (or_introl eq_refl)) as [E|(E1 & E2 & Hin)]; [left; exact E|right].
    apply in_map_iff in Hin as (q & <- & Hq). split; [exact E1|]. split; [exact E2|].
    destruct (Hpre q Hq) as [->|(r & -> & Hr')]; [left; reflexivity|right; exists r; auto]. }
  split; [exact Hr|]. split; [|split; [|split]].
  - apply is_dir_of_lookup. unfold g. rewrite exec_mkdirall, Hl1, (proj2 (in_prefixes_b p p) (prefixes_last p Hne)). reflexivity.
  - intros r nd Hnd. destruct (Heff (InCache (content_dir :: r))) as [E|(_ & E & [E'|(r' & E' & Hr')])]; rewrite E in Hnd.
    + exact (Hc r nd Hnd).
    + exfalso. apply (content_not_tmp (InCache tmp_dir)); [rewrite <- E'; eexists; reflexivity|left; reflexivity].
    + inversion E'. subst r'. inversion Hnd. split; [reflexivity|lia].
  - unfold TmpShape, dir_or_absent. destruct (Heff (InCache tmp_dir)) as [E|(_ & E & _)]; rewrite E; [exact Ht|right; reflexivity].
  - intros l. destruct (Heff l) as [E|(E & E' & [->|(r & -> & _)])]; [left; exact E|right; left|right; left];
      (split; [exact E|split; [exact E'|]]); intros H.
    + exact (index_not_tmp _ H (or_introl eq_refl)).
    + apply (index_not_content _ H). eexists. reflexivity.
Qed.

Lemma s_tmpfile x own0 f n d :
  ContentShape f -> TmpShape f -> own0 = Some n \/ lookup f (x_tmp n) = None ->
  let g := update f (x_tmp n) (File d) in ContentShape g /\ TmpShape g /\ quiet x own0 f g.
Proof.
  intros Hc Ht Hn g. split; [|split].
  - apply (ContentShape_frame f g Hc). intros l Hl. apply lookup_update_neq. intros <-. exact (tmp_loc_not_content n Hl).
  - apply (TmpShape_frame f g Ht). apply lookup_update_neq. discriminate.
  - intros l. unfold g. rewrite lookup_update. destruct (loc_eqb (x_tmp n) l) eqn:E; [|left; reflexivity].
    apply loc_eqb_eq in E. subst l. right. right. left. eauto.
Qed.

Lemma s_publish x n f :
  ContentShape f -> TmpShape f -> lookup f (InCache (x_cp x)) <> Some Dir ->
  let g := update (remove f (x_tmp n)) (InCache (x_cp x)) (File (ws_data x)) in
  ContentShape g /\ TmpShape g /\ quiet x (Some n) f g.
Proof.
  intros Hc Ht Hnd g.
  assert (forall l, l <> x_tmp n -> l <> InCache (x_cp x) -> lookup g l = lookup f l) as Hfr.
  { intros l H1 H2. unfold g. rewrite lookup_update_neq by congruence. apply lookup_remove_neq. congruence. }
  split; [|split].
  - intros p nd Hl. destruct (loc_eq_dec (InCache (content_dir :: p)) (InCache (x_cp x))) as [E|N].
    + unfold g in Hl. rewrite E, lookup_update_eq in Hl. inversion Hl. inversion E. split; [cbn; lia|discriminate].
    + rewrite Hfr in Hl by (try exact N; intros E; exact (tmp_loc_not_content n (ex_intro _ p (eq_sym E)))). exact (Hc p nd Hl).
  - apply (TmpShape_frame f g Ht). apply Hfr; [discriminate|].
    intros E. apply (content_not_tmp (InCache tmp_dir)); [rewrite E; apply cpath_content|left; reflexivity].
  - intros l. destruct (loc_eq_dec l (InCache (x_cp x))) as [->|N]; [right; right; right|].
    { split; [reflexivity|]. split; [exact Hnd|apply lookup_update_eq]. }
    destruct (loc_eq_dec l (x_tmp n)) as [->|N']; [right; right; left; eauto|left; exact (Hfr l N' N)].
Qed.

Lemma idx_frame f h c : index_step (hb hash h) c -> forall l, ~ is_index l -> lookup (snd (exec c f)) l = lookup f l.
Proof. intros Hc l Hl. apply exec_frame. intros Ht. exact (Hl (index_step_index hash _ c Hc l Ht)). Qed.

Lemma content_fact_frame x f g : (forall l, ~ is_index l -> lookup g l = lookup f l) -> content_fact x f -> content_fact x g.
Proof. intros Hfr Hc Hw. rewrite Hfr by apply x_cp_not_index. exact (Hc Hw). Qed.

Lemma stable_index f g y own : mono f g -> (forall l, ~ is_index l -> lookup g l = lookup f l) -> stable f g y own.
Proof.
  intros Hm Hfr. split; [exact Hm|]. split; [exact (content_fact_frame y f g Hfr)|].
  intros n _. apply Hfr. apply tmp_loc_not_index.
Qed.

(* every thread is in a stage; the temp names the threads own ([owns], ghost) are distinct; the cache invariant holds;
   every bucket is its initial bytes followed by the records of [done]: the threads that have appended their record, in
   the order of their append steps (ghost) *)
Definition PInvWd (ws : list wspec) (f0 : fs) (done : list nat) (s : pool (res integrity) * fs) : Prop :=
  let '(pl, f) := s in
  exists (owns : list (option name)),
    NoDup done /\ (forall i, In i done -> (i < List.length ws)%nat) /\
    List.length pl = List.length ws /\ List.length owns = List.length ws /\
    (forall i, (i < List.length ws)%nat -> wst (nth i ws dw) f (nth i pl (Ret Stuck)) (member i done) (nth i owns None)) /\
    (forall i j a b, i <> j -> nth i owns None = Some a -> nth j owns None = Some b -> a <> b) /\
    IndexInv f /\ ContentShape f /\ TmpShape f /\
    (forall b, bshape b -> bucket_at f b = bucket_at f0 b ++ bucket_of hash (hist_records hash (hops_of (map x_hop ws) done) b)).

Definition PInvW (ws : list wspec) (f0 : fs) (s : pool (res integrity) * fs) : Prop := exists done, PInvWd ws f0 done s.

Lemma PInvWd_init ws f0 : CacheInv f0 -> PInvWd ws f0 [] (map wprog ws, f0).
Proof.
  intros [Hi [Hc Ht]]. exists (repeat None (List.length ws)).
  split; [constructor|]. split; [intros i []|]. split; [apply map_length|]. split; [apply repeat_length|].
  split; [|split; [|split; [exact Hi|split; [exact Hc|split; [exact Ht|]]]]].
  - intros i Hi'. cbn [member existsb]. rewrite (nth_indep _ (Ret Stuck) (wprog dw)) by (rewrite map_length; exact Hi').
    rewrite (map_nth wprog ws dw i). rewrite nth_repeat. destruct (ws_rm (nth i ws dw)) eqn:Ek.
    + rewrite (wprog_remover _ Ek). apply W5. intros H. congruence.
    + rewrite (wprog_writer _ Ek). apply W0. exact Ek.
  - intros i j a b _ H. rewrite nth_repeat in H. discriminate.
  - intros b _. cbn [hops_of map hist_records]. unfold bucket_of. cbn. rewrite app_nil_r. reflexivity.
Qed.

Lemma PInvW_init ws f0 : CacheInv f0 -> PInvW ws f0 (map wprog ws, f0).
Proof. intros H. exists []. exact (PInvWd_init ws f0 H). Qed.

Fixpoint set_nth {A} (i : nat) (v : A) (l : list A) : list A :=
  match l, i with
  | [], _ => []
  | _ :: t, O => v :: t
  | x :: t, S j => x :: set_nth j v t
  end.
Lemma set_nth_length {A} i (v : A) l : List.length (set_nth i v l) = List.length l.
Proof. revert i. induction l as [|x l IH]; intros [|i]; cbn; auto. Qed.
Lemma nth_set_nth_eq {A} i (v d : A) l : (i < List.length l)%nat -> nth i (set_nth i v l) d = v.
Proof. revert i. induction l as [|x l IH]; intros [|i] H; cbn in *; try lia; auto. apply IH. lia. Qed.
Lemma nth_set_nth_neq {A} i j (v d : A) l : i <> j -> nth j (set_nth i v l) d = nth j l d.
Proof. revert i j. induction l as [|x l IH]; intros [|i] [|j] H; cbn; auto; try congruence. Qed.

Lemma nth_x_hop ws i : (i < List.length ws)%nat -> nth i (map x_hop ws) dflt = x_hop (nth i ws dw).
Proof. intros Hi. rewrite (nth_indep _ dflt (x_hop dw)) by (rewrite map_length; exact Hi). apply (map_nth x_hop). Qed.

(* the invariant holds at (pre ++ p0 :: post, f) with owned temp names [owns]; the thread at position |pre| steps *)
Section Thread.
Variables (ws : list wspec) (f0 : fs) (done : list nat) (owns : list (option name)).
Variables (pre : pool (res integrity)) (p0 : prog (res integrity)) (post : pool (res integrity)) (f : fs).
Let i0 := List.length pre.
Let x := nth i0 ws dw.
Let own0 := nth i0 owns None.
Hypothesis Hcf : coll_free ws.
Hypothesis Hinv :
  NoDup done /\ (forall i, In i done -> (i < List.length ws)%nat) /\
  List.length (pre ++ p0 :: post) = List.length ws /\ List.length owns = List.length ws /\
  (forall i, (i < List.length ws)%nat -> wst (nth i ws dw) f (nth i (pre ++ p0 :: post) (Ret Stuck)) (member i done) (nth i owns None)) /\
  (forall i j a b, i <> j -> nth i owns None = Some a -> nth j owns None = Some b -> a <> b) /\
  IndexInv f /\ ContentShape f /\ TmpShape f /\
  (forall b, bshape b -> bucket_at f b = bucket_at f0 b ++ bucket_of hash (hist_records hash (hops_of (map x_hop ws) done) b)).

Lemma thread_in : (i0 < List.length ws)%nat.
Proof. destruct Hinv as (_ & _ & Hlen & _). rewrite <- Hlen, app_length. apply Nat.lt_add_pos_r. apply Nat.lt_0_succ. Qed.

Lemma thread_stage : wst x f p0 (member i0 done) own0.
Proof. destruct Hinv as (_ & _ & _ & _ & Hst & _). pose proof (Hst i0 thread_in) as H. unfold i0 in H at 2. rewrite nth_mid in H. exact H. Qed.

(* what re-establishes the invariant after the step: the thread is in a stage on the new tree; a temp name it now owns is
   its old one or was free; no other thread is disturbed *)
Lemma pool_step p' f' done' own' :
  NoDup done' -> (forall i, In i done' -> (i < List.length ws)%nat) -> (forall i, i <> i0 -> member i done' = member i done) ->
  wst x f' p' (member i0 done') own' ->
  (forall a, own' = Some a -> own0 = Some a \/ lookup f (x_tmp a) = None) ->
  (forall y own, In y ws -> (forall a, own = Some a -> own0 <> Some a /\ lookup f (x_tmp a) <> None) -> stable f f' y own) ->
  CacheInv f' ->
  (forall b, bshape b -> bucket_at f' b = bucket_at f0 b ++ bucket_of hash (hist_records hash (hops_of (map x_hop ws) done') b)) ->
  PInvWd ws f0 done' (pre ++ p' :: post, f').
Proof.
  intros Hnd' Hlt' Hmem Hnew Hname Hoth [Hi' [Hc' Ht']] Hb'.
  destruct Hinv as (_ & _ & Hlen & Hlo & Hst & Hdist & _).
  (* the temp files owned by the others exist, under names other than that of the stepping thread *)
  assert (forall j a, j <> i0 -> nth j owns None = Some a -> own0 <> Some a /\ lookup f (x_tmp a) <> None) as Hoj.
  { intros j a Hj Ha. split; [intros E; exact (Hdist i0 j a a (fun e => Hj (eq_sym e)) E Ha eq_refl)|].
    assert (j < List.length ws)%nat as Hlt.
    { destruct (Nat.lt_ge_cases j (List.length ws)) as [H|H]; [exact H|]. rewrite nth_overflow in Ha by (rewrite Hlo; exact H). discriminate. }
    pose proof (Hst j Hlt) as H. rewrite Ha in H. destruct (wst_own_file _ _ _ _ _ H) as [d Hd]. congruence. }
  assert (forall j b, j <> i0 -> nth j owns None = Some b -> own' <> Some b) as Hnew'.
  { intros j b Hj Hb E. destruct (Hoj j b Hj Hb) as [H1 H2]. destruct (Hname b E); contradiction. }
  exists (set_nth i0 own' owns).
  split; [exact Hnd'|]. split; [exact Hlt'|]. split; [rewrite <- Hlen, !app_length; reflexivity|]. split; [rewrite set_nth_length; exact Hlo|].
  split; [|split; [|split; [exact Hi'|split; [exact Hc'|split; [exact Ht'|exact Hb']]]]].
  - intros i Hi. destruct (Nat.eq_dec i i0) as [->|Hne].
    + unfold i0 at 2. rewrite nth_mid, nth_set_nth_eq by (rewrite Hlo; exact thread_in). exact Hnew.
    + rewrite (nth_other pre post p' p0) by exact Hne. rewrite (Hmem i Hne), nth_set_nth_neq by congruence.
      apply (wst_stable _ f); [|apply Hst; exact Hi]. apply Hoth; [apply nth_In; exact Hi|]. intros a Ha. exact (Hoj i a Hne Ha).
  - intros i j a b Hij Ha Hb. destruct (Nat.eq_dec i i0) as [->|Hni]; destruct (Nat.eq_dec j i0) as [->|Hnj]; [contradiction|..].
    + rewrite nth_set_nth_eq in Ha by (rewrite Hlo; exact thread_in). rewrite nth_set_nth_neq in Hb by congruence.
      intros <-. exact (Hnew' j a Hnj Hb Ha).
    + rewrite nth_set_nth_eq in Hb by (rewrite Hlo; exact thread_in). rewrite nth_set_nth_neq in Ha by congruence.
      intros ->. exact (Hnew' i b Hni Ha Hb).
    + rewrite nth_set_nth_neq in Ha, Hb by congruence. exact (Hdist i j a b Hij Ha Hb).
Qed.

Lemma pool_data_step p' f' own' :
  ws_rm x = false -> ContentShape f' /\ TmpShape f' /\ quiet x own0 f f' ->
  wst x f' p' (member i0 done) own' ->
  (forall a, own' = Some a -> own0 = Some a \/ lookup f (x_tmp a) = None) ->
  exists ext, PInvWd ws f0 (done ++ ext) (pre ++ p' :: post, f').
Proof.
  intros Hw (Hc' & Ht' & Hq) Hnew Hname. pose proof Hinv as (Hnd & Hlt & _ & _ & _ & _ & Hi & _ & _ & Hb).
  pose proof (fun l => quiet_index x own0 f f' l Hq) as Hfr.
  exists []. rewrite app_nil_r. apply (pool_step p' f' done own'); try assumption; try reflexivity.
  - intros y own Hy Hown. apply (stable_quiet ws x own0); try assumption; [apply nth_In; exact thread_in|].
    intros n E. pose proof thread_stage as H. fold own0 in H. rewrite E in H. destruct (wst_own_file _ _ _ _ _ H) as [d Hd]. congruence.
  - split; [exact (IndexInv_frame f f' Hi Hfr)|split; assumption].
  - intros b Hbs. unfold bucket_at. rewrite (Hfr _ (bshape_index b Hbs)). exact (Hb b Hbs).
Qed.

(* a step of the index phase is a step of the index thread: nothing outside the index area changes, nothing in it is
   undone, and the append puts the thread at the end of the serial order *)
Lemma pool_index_step c k :
  p0 = Do c k -> wf_rec hash (hop_rec (x_hop x)) -> content_fact x f -> stage hash (x_res x) (x_hop x) f p0 (member i0 done) ->
  exists ext, PInvWd ws f0 (done ++ ext) (pre ++ k (fst (exec c f)) :: post, snd (exec c f)).
Proof.
  intros Ep0 Hwfx Hcp Hs. rewrite Ep0 in Hs. pose proof Hinv as (Hnd & Hlt & _ & _ & _ & _ & Hi & Hc & Ht & Hb).
  pose proof (idx_frame f _ c (stage_index_step hash _ _ _ _ _ _ Hs)) as Hfr.
  destruct (stage_step hash _ _ f c k _ Hi Hwfx Hs) as (Hfl & Hi' & Hm & app & Hs' & Hbk).
  destruct (done_snoc (List.length ws) done i0 app Hnd Hlt thread_in Hfl) as (Hnd' & Hlt' & Hm0 & Hmo).
  exists (if app then [i0] else []). apply (pool_step _ _ _ None); try assumption.
  - rewrite Hm0. exact (wst_index x _ _ _ (content_fact_frame x f _ Hfr Hcp) Hs').
  - discriminate.
  - intros y own _ _. exact (stable_index f _ y own Hm Hfr).
  - exact (CacheInv_index_frame f _ (conj Hi (conj Hc Ht)) Hi' Hfr).
  - apply (buckets_snoc hash (map x_hop ws) f0 f _ done i0 app Hb). rewrite (nth_x_hop ws i0 thread_in). exact Hbk.
Qed.

End Thread.

(* in its content phase the step is quiet and takes the thread to its next stage, with the temp name it then owns (its old
   one, or one that was free); in its index phase the thread is an index thread.  That the commit which follows the data is
   the program [B0'] of the next stage needs the content path to be computable ([B0_B0'], under [HashLen]); what the step
   does to the tree does not, and the readers' side (ConcReadP.step_effect) uses only that *)
Lemma wst_step x f c k fl own0 :
  ContentShape f -> TmpShape f -> wst x f (Do c k) fl own0 ->
  (ws_rm x = false /\
   (ContentShape (snd (exec c f)) /\ TmpShape (snd (exec c f)) /\ quiet x own0 f (snd (exec c f))) /\
   ((forall n, B0 x n = B0' x n) ->
    exists own', wst x (snd (exec c f)) (k (fst (exec c f))) fl own' /\
      forall a, own' = Some a -> own0 = Some a \/ lookup f (x_tmp a) = None)) \/
  (content_fact x f /\ stage hash (x_res x) (x_hop x) f (Do c k) fl).
Proof.
  intros Hc Ht Hs0. remember (Do c k) as p0 eqn:Ep0.
  destruct Hs0 as [Hw|Hw Hd|n Hw Hl Hne|n Hw Hl|n Hw Hl Hd|Hcp|Hcp Hd|d Hcp Hd|Hcp]; [left; split; [exact Hw|]..|right|right|right|discriminate].
  - (* mkdir -p tmp *)
    destruct (do_eq (A0 x) c k _ Ep0 (A0_head x)) as [-> Hk].
    destruct (s_mkdir x None f tmp_dir Hc Ht) as (Hr & Hdir & Heff); [discriminate|intros q [<-|[]]; left; reflexivity|].
    rewrite Hk, Hr. split; [exact Heff|]. intros _. exists None. split; [exact (W1 x _ Hw Hdir)|discriminate].
  - (* CreateTmp: an empty file under a fresh temp name; without data the commit starts right away *)
    destruct (do_eq (A1 x) c k _ Ep0 (A1_head x)) as [-> Hk].
    rewrite Hk, (exec_createtmp f Hd). cbn [fst snd]. set (n := fresh f). fold (x_tmp n).
    assert (lookup f (x_tmp n) = None) as Hfresh by exact (fresh_absent f).
    split; [exact (s_tmpfile x None f n [] Hc Ht (or_intror Hfresh))|]. intros HB. exists (Some n). split; [|intros a [= <-]; right; exact Hfresh].
    change (nxt (A1 x) (RName n)) with (A2 x n). destruct (ws_data x) as [|b0 d0] eqn:Edata.
    + rewrite (A2_empty x n Edata), HB. apply W3; [exact Hw|rewrite Edata; apply lookup_update_eq].
    + apply W2; [exact Hw|apply lookup_update_eq|rewrite Edata; discriminate].
  - (* WriteAppend: the data goes to the thread's own temp file *)
    destruct (A2_data x n Hne) as [Hh Hn2]. destruct (do_eq (A2 x n) c k _ Ep0 Hh) as [-> Hk].
    rewrite Hk, (exec_writeappend f _ [] _ Hl). cbn [fst snd app]. rewrite Hn2.
    split; [exact (s_tmpfile x (Some n) f n _ Hc Ht (or_introl eq_refl))|]. intros ->. exists (Some n). split; [|auto].
    apply W3; [exact Hw|apply lookup_update_eq].
  - (* mkdir -p of the shard directories of the content path *)
    destruct (do_eq (B0' x n) c k _ Ep0 (B0'_head x n)) as [-> Hk].
    destruct (s_mkdir x (Some n) f (parent (x_cp x)) Hc Ht) as (Hr & Hdir & Heff); [discriminate|intros q Hq; right; exact (cpath_shard_dirs hash _ _ q Hq)|].
    rewrite Hk, Hr. split; [exact Heff|]. intros _. exists (Some n). split; [|auto].
    apply W4; [exact Hw|rewrite exec_mkdirall; apply mkdirs_keeps; exact Hl|exact Hdir].
  - (* Rename: the content is published *)
    destruct (do_eq (B1 x n) c k _ Ep0 (B1_head x n)) as [-> Hk].
    assert (lookup f (InCache (x_cp x)) <> Some Dir) as Hnd by (intros E; exact (proj2 (Hc _ _ E) eq_refl eq_refl)).
    rewrite Hk, (exec_rename f _ (InCache (x_cp x)) _ Hl Hd Hnd). cbn [fst snd]. rewrite (B1_next x n Hw).
    split; [exact (s_publish x n f Hc Ht Hnd)|]. intros _. exists None. split; [|discriminate]. apply W5. intros _. apply lookup_update_eq.
  - split; [exact Hcp|apply St0].
  - split; [exact Hcp|exact (St1 hash _ _ f Hd)].
  - split; [exact Hcp|exact (St2 hash _ _ f d Hd)].
Qed.

Lemma PInvWd_step ws f0 done s s' :
  coll_free ws -> Forall (fun x => wf_rec hash (hop_rec (x_hop x))) ws ->
  PInvWd ws f0 done s -> pstep s s' -> exists ext, PInvWd ws f0 (done ++ ext) s'.
Proof.
  intros Hcf Hwf Hinv Hstep. destruct Hstep as [pre c k post f]. destruct Hinv as [owns Hinv].
  pose proof (thread_in ws f0 done owns pre _ post f Hinv) as Hi0.
  pose proof Hinv as (_ & _ & _ & _ & _ & _ & _ & Hc & Ht & _).
  destruct (wst_step _ f c k _ _ Hc Ht (thread_stage ws f0 done owns pre _ post f Hinv)) as [(Hw & Hq & Hnext)|[Hcp Hs]].
  - destruct (Hnext (B0_B0' _)) as (own' & Hs' & Hname). exact (pool_data_step ws f0 done owns pre _ post f Hcf Hinv _ _ own' Hw Hq Hs' Hname).
  - apply (pool_index_step ws f0 done owns pre _ post f Hinv c k eq_refl); [|exact Hcp|exact Hs].
    rewrite Forall_forall in Hwf. apply Hwf, nth_In, Hi0.
Qed.

Lemma PInvW_step ws f0 s s' :
  coll_free ws -> Forall (fun x => wf_rec hash (hop_rec (x_hop x))) ws ->
  PInvW ws f0 s -> pstep s s' -> PInvW ws f0 s'.
Proof. intros Hcf Hwf [done Hi] Hs. destruct (PInvWd_step ws f0 done s s' Hcf Hwf Hi Hs) as [ext H]. exists (done ++ ext). exact H. Qed.

Lemma PInvWd_reach ws f0 done s s' :
  coll_free ws -> Forall (fun x => wf_rec hash (hop_rec (x_hop x))) ws ->
  PInvWd ws f0 done s -> preach s s' -> exists ext, PInvWd ws f0 (done ++ ext) s'.
Proof.
  intros Hcf Hwf Hi Hr. revert done Hi. induction Hr as [s|s1 s2 s3 Hs _ IH]; intros done Hi.
  - exists []. rewrite app_nil_r. exact Hi.
  - destruct (PInvWd_step ws f0 done s1 s2 Hcf Hwf Hi Hs) as [e1 H1]. destruct (IH _ H1) as [e2 H2].
    exists (e1 ++ e2). rewrite app_assoc. exact H2.
Qed.

Lemma PInvWd_finished ws f0 done pl f rs :
  PInvWd ws f0 done (pl, f) -> results pl = Some rs ->
  rs = map (fun x => Ok (x_res x)) ws /\ Permutation (map (fun i => nth i ws dw) done) ws.
Proof.
  intros (owns & Hnd & Hlt & Hlen & _ & Hst & _) Hres. apply results_some_ret in Hres. subst pl. rewrite map_length in Hlen.
  assert (forall i, (i < List.length ws)%nat -> nth i rs Stuck = Ok (x_res (nth i ws dw)) /\ In i done) as Hall.
  { intros i Hi. pose proof (Hst i Hi) as Hs. rewrite (map_nth (@Ret (res integrity)) rs Stuck i) in Hs.
    destruct (wst_ret _ _ _ _ _ Hs) as [E1 [E2 _]]. split; [exact E1|apply member_spec; exact E2]. }
  split.
  - apply (nth_ext _ _ Stuck (Ok (x_res dw))); [rewrite map_length; exact Hlen|].
    intros n Hn. rewrite Hlen in Hn. rewrite (proj1 (Hall n Hn)). symmetry. apply (map_nth (fun x => Ok (x_res x)) ws dw n).
  - exact (nth_perm ws dw done Hnd Hlt (fun i Hi => proj2 (Hall i Hi))).
Qed.

Lemma hops_of_nth ws done : (forall i, In i done -> (i < List.length ws)%nat) ->
  hops_of (map x_hop ws) done = map (fun i => x_hop (nth i ws dw)) done.
Proof.
  intros Hlt. apply map_ext_in. intros i Hin. exact (nth_x_hop ws i (Hlt i Hin)).
Qed.

(* the index in a reachable state: the serial run of the threads that have appended, in the order of their appends *)
Lemma PInvWd_serial ws f0 done pl f :
  IndexInv f0 -> Forall (fun x => wf_rec hash (hop_rec (x_hop x))) ws -> PInvWd ws f0 done (pl, f) ->
  (forall b, bshape b -> bucket_at f b = bucket_at (fold_left (exec_hop hash) (hops_of (map x_hop ws) done) f0) b) /\
  (forall k, abs_idx hash f k = fold_left spec_step (hops_of (map x_hop ws) done) (abs_idx hash f0) k).
Proof.
  intros Hinv0 Hwf (owns & _ & Hlt & _ & _ & _ & _ & _ & _ & _ & Hb). apply (buckets_serial hash _ f0 f Hinv0); [|exact Hb].
  apply Forall_forall. intros h Hh. rewrite (hops_of_nth ws done Hlt) in Hh. apply in_map_iff in Hh as [i [<- Hin]].
  set (y := nth i ws dw). rewrite Forall_forall in Hwf. cbn [wf_hop x_hop]. split; [exact (Hwf y (nth_In ws dw (Hlt i Hin)))|].
  intros j Ej. destruct (ws_rm y); [discriminate|]. cbn [x_o' o_sri] in Ej. inversion Ej; subst j. apply parse_entry_computed. exact HL.
Qed.

Lemma PInvWd_index ws f0 done pl f :
  IndexInv f0 -> Forall (fun x => wf_rec hash (hop_rec (x_hop x))) ws ->
  PInvWd ws f0 done (pl, f) ->
  CacheInv f /\
    (forall i, In i done -> (i < List.length ws)%nat /\ content_fact (nth i ws dw) f) /\
    forall k, abs_idx hash f k = fold_left spec_step (hops_of (map x_hop ws) done) (abs_idx hash f0) k.
Proof.
  intros Hinv0 Hwf Hinv. split; [|split; [|exact (proj2 (PInvWd_serial ws f0 done pl f Hinv0 Hwf Hinv))]];
    destruct Hinv as (owns & _ & Hlt & _ & _ & Hst & _ & Hi & Hc & Ht & _); [exact (conj Hi (conj Hc Ht))|].
  intros i Hin. split; [exact (Hlt i Hin)|]. pose proof (Hst i (Hlt i Hin)) as H.
  rewrite (proj2 (member_spec i done) Hin) in H. exact (wst_done _ _ _ _ H).
Qed.

Theorem conc_writes_serializable ws f0 pl' f' rs :
  CacheInv f0 -> coll_free ws -> Forall (fun x => wf_rec hash (hop_rec (x_hop x))) ws ->
  preach (map wprog ws, f0) (pl', f') -> results pl' = Some rs ->
  rs = map (fun x => Ok (x_res x)) ws /\
  (forall x, In x ws -> ws_rm x = false -> lookup f' (InCache (x_cp x)) = Some (File (ws_data x))) /\
  CacheInv f' /\
  exists perm, Permutation perm ws /\
    (forall b, bshape b -> bucket_at f' b = bucket_at (fold_left (exec_hop hash) (map x_hop perm) f0) b) /\
    (forall k, abs_idx hash f' k = fold_left spec_step (map x_hop perm) (abs_idx hash f0) k).
Proof.
  intros Hinv0 Hcf Hwf Hr Hres.
  destruct (PInvWd_reach ws f0 [] _ _ Hcf Hwf (PInvWd_init ws f0 Hinv0) Hr) as [done Hd]. cbn [app] in Hd.
  destruct (PInvWd_finished ws f0 done pl' f' rs Hd Hres) as [Ers Hperm].
  destruct (PInvWd_index ws f0 done pl' f' (proj1 Hinv0) Hwf Hd) as (Hinv' & Hdone & _).
  destruct (PInvWd_serial ws f0 done pl' f' (proj1 Hinv0) Hwf Hd) as [Hbk Habs].
  rewrite (hops_of_nth ws done (fun i Hi => proj1 (Hdone i Hi))), <- (map_map (fun i => nth i ws dw) x_hop) in Hbk, Habs.
  split; [exact Ers|]. split.
  { intros x Hx Hwx. apply (Permutation_in _ (Permutation_sym Hperm)), in_map_iff in Hx as (i & <- & Hi). exact (proj2 (Hdone i Hi) Hwx). }
  split; [exact Hinv'|]. exists (map (fun i => nth i ws dw) done). split; [exact Hperm|split; assumption].
Qed.

End CW.
