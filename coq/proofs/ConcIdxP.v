(* ConcIdxP.v — C07, unbounded: any number of concurrent index writers (inserts and tombstone removals — the index phase
   of every keyed write and removal), any interleaving of their filesystem steps, any tree with a well-shaped index area:
   no step fails, every operation returns Ok, and the final index is exactly the one produced by running the operations
   serially in the order of their append steps.  No write is lost, none is spliced. *)
From CC Require Import Bytes Sri Record Fs Prog Api Conc FsP StepsP IndexP CrashIdxP FormatP ConcP.
From Coq Require Import Lia Permutation.

Section CI.
Variable hash : algo -> bytes -> bytes.

Definition hop_key (h : hop) : bytes := match h with HIns k _ _ | HDel k _ => k end.
Definition hop_rec (h : hop) : smeta := match h with HIns k o now => smeta_of k o now | HDel k now => smeta_of k wopts0 now end.
Definition hb (h : hop) : path := bucket_path hash (hop_key h).
Definition hop_steps (h : hop) : list sys :=
  [MkdirAll (parent (hb h)); CreateIfMissing (InCache (hb h)); Append (InCache (hb h)) (record_bytes hash (hop_rec h))].
(* the step program of an index insert / removal (result reduced to success or failure) *)
Definition hop_prog (h : hop) : prog (res unit) := seq_prog (hop_steps h) tt.

Lemma insert_is_hop_prog key o now :
  insert hash key o now = seq_prog (hop_steps (HIns key o now)) (match o_sri o with Some i => i | None => deadbeef end).
Proof. reflexivity. Qed.

Definition dflt : hop := HDel [] 0%N.
Definition bshape (b : path) : Prop := exists a c d, b = [index_dir; a; c; d].
Lemma hb_shape h : bshape (hb h).
Proof. exact (bucket_path_shape hash (hop_key h)). Qed.

(* where a thread stands: before each of its three steps with what that step needs of the tree, or returned (the flag:
   its record is appended).  [v] is what it returns: [tt] here, the address for the index phase of a whole write *)
Inductive stage {V} (v : V) (h : hop) (f : fs) : prog (res V) -> bool -> Prop :=
| St0 : stage v h f (seq_prog (hop_steps h) v) false
| St1 : is_dir f (parent (hb h)) = true -> stage v h f (seq_prog (tl (hop_steps h)) v) false
| St2 d : lookup f (InCache (hb h)) = Some (File d) -> stage v h f (seq_prog (tl (tl (hop_steps h))) v) false
| St3 : stage v h f (Ret (Ok v)) true.

(* facts about the tree that no index step ever undoes *)
Definition mono (f g : fs) : Prop :=
  (forall p, is_dir f p = true -> is_dir g p = true) /\
  (forall b, bshape b -> forall d, lookup f (InCache b) = Some (File d) -> exists d', lookup g (InCache b) = Some (File d')).

Lemma mono_intro f g :
  (forall l n, lookup f l = Some n -> lookup g l = Some n \/ exists d d', n = File d /\ lookup g l = Some (File d')) ->
  mono f g.
Proof.
  intros H. split.
  - intros [|x p] Hp; [reflexivity|]. apply is_dir_lookup in Hp.
    destruct (H _ _ Hp) as [E|(d & d' & [=] & _)]. exact (is_dir_of_lookup _ _ E).
  - intros b _ d Hd. destruct (H _ _ Hd) as [E|(_ & d' & _ & E)]; eauto.
Qed.

Lemma stage_mono {V} (v : V) h f g p fl : mono f g -> stage v h f p fl -> stage v h g p fl.
Proof.
  intros [Hd Hf] Hs. destruct Hs as [|H|d H|]; [constructor|constructor; apply Hd; exact H| |constructor].
  destruct (Hf (hb h) (hb_shape h) d H) as [d' Hd']. exact (St2 v h g d' Hd').
Qed.

Lemma stage_ret {V} (v : V) h f r fl : stage v h f (Ret r) fl -> r = Ok v /\ fl = true.
Proof. intros Hs. inversion Hs. split; reflexivity. Qed.

Definition member (i : nat) (l : list nat) : bool := existsb (Nat.eqb i) l.

Definition hops_of (hs : list hop) (done : list nat) : list hop := map (fun i => nth i hs dflt) done.

(* every thread is in a stage; [done] (ghost) lists the threads that have appended, in the order of their append steps:
   every bucket is its initial bytes followed by their records *)
Definition PInvD (hs : list hop) (f0 : fs) (done : list nat) (s : pool (res unit) * fs) : Prop :=
  let '(pl, f) := s in
    NoDup done /\ (forall i, In i done -> (i < List.length hs)%nat) /\
    List.length pl = List.length hs /\
    (forall i, (i < List.length hs)%nat -> stage tt (nth i hs dflt) f (nth i pl (Ret Stuck)) (member i done)) /\
    IndexInv f /\
    (forall b, bshape b -> bucket_at f b = bucket_at f0 b ++ bucket_of hash (hist_records hash (hops_of hs done) b)).

(* the three steps, from any tree with a sound index: none fails, the index stays sound, the buckets keep their bytes
   (the append adds its record), nothing is undone *)
Lemma step_mkdir f b :
  IndexInv f -> bshape b ->
  let f' := snd (exec (MkdirAll (parent b)) f) in
  is_err (fst (exec (MkdirAll (parent b)) f)) = false /\ IndexInv f' /\ is_dir f' (parent b) = true /\
  (forall b', bshape b' -> bucket_at f' b' = bucket_at f b') /\ mono f f'.
Proof.
  intros Hinv Hb. destruct (index_mkdir b Hb f Hinv) as (f1 & E & Hpar & Hmk). specialize (Hmk f1 (or_introl eq_refl)).
  rewrite E. cbn [fst snd is_err]. split; [reflexivity|]. split; [exact (more_dirs_inv f f1 Hinv Hmk)|].
  split; [exact (is_dir_of_lookup _ _ Hpar)|]. split.
  - intros b' Hb'. unfold bucket_at. rewrite (more_dirs_bucket b' Hb' f f1 Hmk). reflexivity.
  - apply mono_intro. intros l n Hn. left. exact (more_dirs_keeps f f1 l n Hmk Hn).
Qed.

Lemma step_create f b :
  IndexInv f -> bshape b -> is_dir f (parent b) = true ->
  let f' := snd (exec (CreateIfMissing (InCache b)) f) in
  is_err (fst (exec (CreateIfMissing (InCache b)) f)) = false /\ IndexInv f' /\
  (exists d, lookup f' (InCache b) = Some (File d)) /\
  (forall b', bshape b' -> bucket_at f' b' = bucket_at f b') /\ mono f f'.
Proof.
  intros Hinv Hb Hpar.
  assert (lookup f (InCache (parent b)) = Some Dir) as Hpar'
    by (destruct Hb as (a & c & d & ->); exact (is_dir_lookup f _ _ Hpar)).
  destruct (index_create b Hb f Hinv Hpar') as (f2 & E & Hi2 & Hb2 & Hfr).
  rewrite E. cbn [fst snd is_err]. split; [reflexivity|]. split; [exact Hi2|]. split; [eauto|]. split.
  - intros b' _. unfold bucket_at. destruct (loc_eq_dec (InCache b') (InCache b)) as [->|N]; [rewrite Hb2|rewrite (Hfr _ N)]; reflexivity.
  - apply mono_intro. intros l n Hn. left. destruct (loc_eq_dec l (InCache b)) as [->|N]; [|rewrite (Hfr _ N); exact Hn].
    rewrite Hb2, Hn. destruct (bucket_file b Hb f n Hinv Hn) as (d & -> & _). reflexivity.
Qed.

Lemma step_append f h d :
  IndexInv f -> wf_rec hash (hop_rec h) -> lookup f (InCache (hb h)) = Some (File d) ->
  let f' := snd (exec (Append (InCache (hb h)) (record_bytes hash (hop_rec h))) f) in
  is_err (fst (exec (Append (InCache (hb h)) (record_bytes hash (hop_rec h))) f)) = false /\ IndexInv f' /\
  (forall b', bshape b' -> bucket_at f' b' = bucket_at f b' ++ bucket_of hash (hist_records hash [h] b')) /\ mono f f'.
Proof.
  intros Hinv Hwf Hl. rewrite (exec_append f _ d _ Hl). cbn [fst snd is_err]. split; [reflexivity|].
  destruct (bucket_file _ (hb_shape h) f _ Hinv Hl) as (d' & [= <-] & Hd). split; [|split].
  - apply (IndexInv_update_bucket _ (hb_shape h)); [exact Hinv|exact (proj2 (entries_app_record hash d _ Hd Hwf))].
  - intros b' _. unfold bucket_at. rewrite lookup_update. cbn [loc_eqb].
    replace (hist_records hash [h] b') with (if path_eqb (hb h) b' then [hop_rec h] else [])
      by (destruct h; cbn [hist_records hb hop_key hop_rec]; destruct (path_eqb _ b'); reflexivity).
    destruct (path_eqb (hb h) b') eqn:E; unfold bucket_of; cbn [map List.concat]; rewrite app_nil_r; [|reflexivity].
    apply path_eqb_eq in E as <-. rewrite Hl. reflexivity.
  - apply mono_intro. intros l n Hn. rewrite lookup_update. destruct (loc_eqb (InCache (hb h)) l) eqn:E; [|left; exact Hn].
    apply loc_eqb_eq in E as <-. right. rewrite Hl in Hn. injection Hn as <-. eauto.
Qed.

Lemma nth_mid {A} (pre post : list A) x d : nth (List.length pre) (pre ++ x :: post) d = x.
Proof. rewrite app_nth2 by lia. rewrite Nat.sub_diag. reflexivity. Qed.
Lemma nth_other {A} (pre post : list A) x y d i : i <> List.length pre -> nth i (pre ++ x :: post) d = nth i (pre ++ y :: post) d.
Proof.
  intros Hne. destruct (Nat.lt_ge_cases i (List.length pre)) as [Hlt|Hge].
  - rewrite !app_nth1 by exact Hlt. reflexivity.
  - rewrite !app_nth2 by exact Hge. destruct (i - List.length pre)%nat as [|m] eqn:E; [lia|reflexivity].
Qed.
Lemma map_nth_seq {A} (l : list A) d : map (fun i => nth i l d) (seq 0 (List.length l)) = l.
Proof.
  induction l as [|x l IH]; [reflexivity|]. cbn [List.length seq map nth]. f_equal.
  rewrite <- seq_shift, map_map. exact IH.
Qed.
Lemma nth_perm {A} (l : list A) d done :
  NoDup done -> (forall i, In i done -> (i < List.length l)%nat) -> (forall i, (i < List.length l)%nat -> In i done) ->
  Permutation (map (fun i => nth i l d) done) l.
Proof.
  intros Hnd Hlt Hall. assert (Permutation done (seq 0 (List.length l))) as Hp.
  { apply NoDup_Permutation; [exact Hnd|apply seq_NoDup|]. intros x. rewrite in_seq.
    split; [intros H; split; [lia|exact (Hlt x H)]|intros [_ H]; exact (Hall x H)]. }
  apply (Permutation_map (fun i => nth i l d)) in Hp. rewrite map_nth_seq in Hp. exact Hp.
Qed.
Lemma member_spec i l : member i l = true <-> In i l.
Proof.
  unfold member. rewrite existsb_exists. split; [intros [x [Hx E]]; apply Nat.eqb_eq in E; subst; exact Hx|intros H; exists i; split; [exact H|apply Nat.eqb_refl]].
Qed.

Lemma seq_prog_step {V} c cs (v : V) c' k :
  seq_prog (c :: cs) v = Do c' k -> c' = c /\ forall r, is_err r = false -> k r = seq_prog cs v.
Proof. intros [= <- <-]. split; [reflexivity|]. intros r Hr. destruct r; try reflexivity. discriminate. Qed.

(* thread [i0] has stepped; it joins the order at its end when the step was its append ([app]) *)
Lemma done_snoc n done i0 (app : bool) :
  NoDup done -> (forall i, In i done -> (i < n)%nat) -> (i0 < n)%nat -> member i0 done = false ->
  let done' := done ++ (if app then [i0] else []) in
  NoDup done' /\ (forall i, In i done' -> (i < n)%nat) /\
  member i0 done' = app /\ (forall i, i <> i0 -> member i done' = member i done).
Proof.
  intros Hnd Hlt Hi0 Hm. destruct app; cbv zeta; [|rewrite app_nil_r; auto]. split; [|split; [|split]].
  - apply (Permutation_NoDup (Permutation_cons_append done i0)). constructor; [|exact Hnd].
    intros Hin. apply member_spec in Hin. congruence.
  - intros i Hin. apply in_app_or in Hin as [Hin|[<-|[]]]; [exact (Hlt i Hin)|exact Hi0].
  - apply member_spec, in_or_app. right. left. reflexivity.
  - intros i Hne. unfold member. rewrite existsb_app. cbn [existsb]. rewrite (proj2 (Nat.eqb_neq i i0) Hne), !orb_false_r. reflexivity.
Qed.

(* ... and its record is then the last of its bucket *)
Lemma buckets_snoc hs f0 f f' done i0 (app : bool) :
  (forall b, bshape b -> bucket_at f b = bucket_at f0 b ++ bucket_of hash (hist_records hash (hops_of hs done) b)) ->
  (forall b, bshape b -> bucket_at f' b = bucket_at f b ++ bucket_of hash (hist_records hash (if app then [nth i0 hs dflt] else []) b)) ->
  forall b, bshape b ->
    bucket_at f' b = bucket_at f0 b ++ bucket_of hash (hist_records hash (hops_of hs (done ++ if app then [i0] else [])) b).
Proof.
  intros Hb Hbk b Hbs. rewrite (Hbk b Hbs), (Hb b Hbs). unfold hops_of. rewrite map_app, hist_records_app, bucket_of_app, app_assoc.
  destruct app; reflexivity.
Qed.

Lemma PInvD_init hs f0 : IndexInv f0 -> PInvD hs f0 [] (map hop_prog hs, f0).
Proof.
  intros Hi. split; [constructor|]. split; [intros i []|]. split; [apply map_length|]. split; [|split; [exact Hi|]].
  - intros i Hi'. cbn [member existsb]. rewrite (nth_indep _ (Ret Stuck) (hop_prog dflt)) by (rewrite map_length; exact Hi').
    rewrite (map_nth hop_prog hs dflt i). constructor.
  - intros b _. cbn [hops_of map hist_records]. unfold bucket_of. cbn. rewrite app_nil_r. reflexivity.
Qed.

Lemma stage_step {V} (v : V) h f c k fl :
  IndexInv f -> wf_rec hash (hop_rec h) -> stage v h f (Do c k) fl ->
  fl = false /\ IndexInv (snd (exec c f)) /\ mono f (snd (exec c f)) /\
  exists app, stage v h (snd (exec c f)) (k (fst (exec c f))) app /\
    forall b, bshape b ->
      bucket_at (snd (exec c f)) b = bucket_at f b ++ bucket_of hash (hist_records hash (if app then [h] else []) b).
Proof.
  intros Hi Hwf Hs. remember (Do c k) as p eqn:E.
  destruct Hs as [|Hdir|d Hd|]; [| | |discriminate]; apply seq_prog_step in E as [-> Hk]; (split; [reflexivity|]).
  - destruct (step_mkdir f (hb h) Hi (hb_shape h)) as (Herr & Hi' & Hdir & Hbk & Hm).
    split; [exact Hi'|]. split; [exact Hm|]. exists false. rewrite (Hk _ Herr). split; [exact (St1 v h _ Hdir)|].
    intros b Hb. rewrite (Hbk b Hb). symmetry. apply app_nil_r.
  - destruct (step_create f (hb h) Hi (hb_shape h) Hdir) as (Herr & Hi' & (d & Hd) & Hbk & Hm).
    split; [exact Hi'|]. split; [exact Hm|]. exists false. rewrite (Hk _ Herr). split; [exact (St2 v h _ d Hd)|].
    intros b Hb. rewrite (Hbk b Hb). symmetry. apply app_nil_r.
  - destruct (step_append f h d Hi Hwf Hd) as (Herr & Hi' & Hbk & Hm).
    split; [exact Hi'|]. split; [exact Hm|]. exists true. rewrite (Hk _ Herr). split; [exact (St3 v h _)|exact Hbk].
Qed.

Lemma stage_index_step {V} (v : V) h f c k fl : stage v h f (Do c k) fl -> index_step (hb h) c.
Proof.
  intros Hs. remember (Do c k) as p eqn:E.
  destruct Hs; [| | |discriminate]; apply seq_prog_step in E as [-> _]; reflexivity.
Qed.

Lemma PInvD_step hs f0 done s s' :
  Forall (wf_hop hash) hs -> PInvD hs f0 done s -> pstep s s' -> exists ext, PInvD hs f0 (done ++ ext) s'.
Proof.
  intros Hwf Hinv Hstep. destruct Hstep as [pre c k post f]. destruct Hinv as (Hnd & Hlt & Hlen & Hst & Hi & Hb).
  set (i0 := List.length pre).
  assert (i0 < List.length hs)%nat as Hi0 by (rewrite <- Hlen, app_length; cbn [List.length]; lia).
  set (h := nth i0 hs dflt).
  assert (wf_rec hash (hop_rec h)) as Hwfh.
  { rewrite Forall_forall in Hwf. pose proof (Hwf h (nth_In hs dflt Hi0)) as H. destruct h; cbn [wf_hop hop_rec] in *; [exact (proj1 H)|exact H]. }
  pose proof (Hst i0 Hi0) as Hs0. fold h in Hs0. unfold i0 in Hs0 at 1. rewrite nth_mid in Hs0.
  destruct (stage_step tt h f c k _ Hi Hwfh Hs0) as (Hfl & Hi' & Hm & app & Hs' & Hbk).
  destruct (done_snoc (List.length hs) done i0 app Hnd Hlt Hi0 Hfl) as (Hnd' & Hlt' & Hm0 & Hmo).
  exists (if app then [i0] else []). split; [exact Hnd'|]. split; [exact Hlt'|].
  split; [rewrite <- Hlen, !app_length; reflexivity|]. split; [|split; [exact Hi'|exact (buckets_snoc hs f0 f _ done i0 app Hb Hbk)]].
  intros i Hi1. destruct (Nat.eq_dec i i0) as [->|Hne].
  - unfold i0 at 2. rewrite nth_mid, Hm0. exact Hs'.
  - rewrite (nth_other pre post _ (Do c k)) by exact Hne. rewrite (Hmo i Hne). exact (stage_mono tt _ f _ _ _ Hm (Hst i Hi1)).
Qed.

Lemma PInvD_reach hs f0 done s s' :
  Forall (wf_hop hash) hs -> PInvD hs f0 done s -> preach s s' -> exists ext, PInvD hs f0 (done ++ ext) s'.
Proof.
  intros Hwf Hi Hr. revert done Hi. induction Hr as [s|s1 s2 s3 Hs _ IH]; intros done Hi; [exists []; rewrite app_nil_r; exact Hi|].
  destruct (PInvD_step hs f0 done s1 s2 Hwf Hi Hs) as [e1 H1]. destruct (IH _ H1) as [e2 H2]. exists (e1 ++ e2). rewrite app_assoc. exact H2.
Qed.

Lemma buckets_serial hs f0 f :
  IndexInv f0 -> Forall (wf_hop hash) hs ->
  (forall b, bshape b -> bucket_at f b = bucket_at f0 b ++ bucket_of hash (hist_records hash hs b)) ->
  (forall b, bshape b -> bucket_at f b = bucket_at (fold_left (exec_hop hash) hs f0) b) /\
  (forall k, abs_idx hash f k = fold_left spec_step hs (abs_idx hash f0) k).
Proof.
  intros Hi0 Hwf Hb.
  assert (forall b, bshape b -> bucket_at f b = bucket_at (fold_left (exec_hop hash) hs f0) b) as Hbk
    by (intros b Hbs; rewrite (Hb b Hbs); symmetry; apply bucket_language; assumption).
  split; [exact Hbk|]. intros k. rewrite <- (proj2 (abs_idx_hist hash _ f0 Hi0 Hwf) k).
  pose proof (Hbk _ (bucket_path_shape hash k)) as Hk. unfold abs_idx, bucket_bytes. unfold bucket_at in Hk. rewrite Hk. reflexivity.
Qed.

Lemma PInvD_serial hs f0 done pl f :
  IndexInv f0 -> Forall (wf_hop hash) hs -> PInvD hs f0 done (pl, f) ->
  (forall b, bshape b -> bucket_at f b = bucket_at (fold_left (exec_hop hash) (hops_of hs done) f0) b) /\
  (forall k, abs_idx hash f k = fold_left spec_step (hops_of hs done) (abs_idx hash f0) k).
Proof.
  intros Hi0 Hwf (_ & Hlt & _ & _ & _ & Hb). apply (buckets_serial _ f0 f Hi0); [|exact Hb].
  apply Forall_forall. intros h Hh. apply in_map_iff in Hh as [i [<- Hi]].
  rewrite Forall_forall in Hwf. apply Hwf, nth_In, Hlt, Hi.
Qed.

(* a lookup is one step (the read of the bucket file); executed in ANY reachable state of the pool it answers what the
   serial run of the operations appended so far answers: never a partial record, never a lost write *)
Theorem observe_serial_prefix hs f0 done pl f k :
  IndexInv f0 -> Forall (wf_hop hash) hs -> PInvD hs f0 done (pl, f) ->
  run (find hash k) f = (Ok (fold_left spec_step (hops_of hs done) (abs_idx hash f0) k), f).
Proof.
  intros Hi0 Hwf Hinv. rewrite <- (proj2 (PInvD_serial hs f0 done pl f Hi0 Hwf Hinv) k).
  destruct Hinv as (_ & _ & _ & _ & Hi & _). exact (find_run hash f k Hi).
Qed.

(* linearisability of lookups: two observations one after the other see serial states of growing prefixes of one order *)
Theorem observations_monotone hs f0 s1 s2 :
  IndexInv f0 -> Forall (wf_hop hash) hs ->
  preach (map hop_prog hs, f0) s1 -> preach s1 s2 ->
  exists done ext,
    (forall k, run (find hash k) (snd s1) = (Ok (fold_left spec_step (hops_of hs done) (abs_idx hash f0) k), snd s1)) /\
    (forall k, run (find hash k) (snd s2) = (Ok (fold_left spec_step (hops_of hs (done ++ ext)) (abs_idx hash f0) k), snd s2)).
Proof.
  intros Hi0 Hwf H1 H2.
  destruct (PInvD_reach hs f0 [] _ s1 Hwf (PInvD_init hs f0 Hi0) H1) as [e1 He1]. destruct (PInvD_reach hs f0 _ s1 s2 Hwf He1 H2) as [e2 He2].
  exists e1, e2. destruct s1 as [pl1 f1], s2 as [pl2 f2]. cbn [snd]. split; intros k.
  - exact (observe_serial_prefix hs f0 _ pl1 f1 k Hi0 Hwf He1).
  - exact (observe_serial_prefix hs f0 _ pl2 f2 k Hi0 Hwf He2).
Qed.

Theorem conc_index_serializable hs f0 pl' f' rs :
  IndexInv f0 -> Forall (wf_hop hash) hs ->
  preach (map hop_prog hs, f0) (pl', f') -> results pl' = Some rs ->
  exists perm,
    Permutation perm hs /\
    rs = repeat (Ok tt) (List.length hs) /\
    IndexInv f' /\
    (forall b, bshape b -> bucket_at f' b = bucket_at (fold_left (exec_hop hash) perm f0) b) /\
    (forall k, abs_idx hash f' k = fold_left spec_step perm (abs_idx hash f0) k).
Proof.
  intros Hi0 Hwf Hr Hres.
  destruct (PInvD_reach hs f0 [] _ _ Hwf (PInvD_init hs f0 Hi0) Hr) as [done Hinv]. cbn [app] in Hinv.
  pose proof Hinv as (Hnd & Hlt & Hlen & Hst & Hi & _).
  rewrite (results_some_ret pl' rs Hres), map_length in Hlen.
  (* every thread has finished: it has returned Ok, and it has appended *)
  assert (forall i, (i < List.length hs)%nat -> nth i rs Stuck = Ok tt /\ In i done) as Hall.
  { intros i Hi'. pose proof (Hst i Hi') as Hs.
    rewrite (results_some_ret pl' rs Hres), (map_nth (@Ret (res unit)) rs Stuck i) in Hs.
    destruct (stage_ret _ _ _ _ _ Hs) as [E Hm]. split; [exact E|apply member_spec; exact Hm]. }
  exists (hops_of hs done). split; [exact (nth_perm hs dflt done Hnd Hlt (fun i Hi' => proj2 (Hall i Hi')))|]. split; [|split; [exact Hi|exact (PInvD_serial hs f0 done pl' f' Hi0 Hwf Hinv)]].
  apply (nth_ext _ _ Stuck (Ok tt)); [rewrite repeat_length; exact Hlen|].
  intros n Hn. rewrite nth_repeat. apply Hall. rewrite <- Hlen. exact Hn.
Qed.

End CI.
