(* FaultP.v — C13: failing filesystem operations.  In every run in which any number of steps fail (each leaving the tree
   as it was or in an intermediate state of the failed step: short write, partial mkdir -p, partial copy) the content
   invariant is kept, a failed index insert leaves every lookup unchanged or the complete record (error reported late),
   and a close or commit that answers Ok has left a file at the content path of the hashed bytes.  What TotalP shows for
   all answers of the steps ([fpost]) holds of every faulty run ([fpost_frun]). *)
From CC Require Import Bytes Sri Record Fs Prog Api Crash BytesP FsP ProgP StepsP IndexP WriteP CommitP TotalP
  CrashP CrashIdxP.
From Coq Require Import Lia.
Local Open Scope N_scope.

Theorem fpost_frun {A} (Q : A -> Prop) (p : prog A) f a f' : fpost Q p -> frun p f a f' -> Q a.
Proof.
  intros Hp Hr. induction Hr as [a f|c k f a f'' _ IH|c k f e g a f'' Hf _ _ IH]; cbn [fpost] in Hp.
  - exact Hp.
  - apply IH. apply Hp. apply exec_shape.
  - apply IH. apply Hp. exact Hf.
Qed.

Definition okq {A} (Q : A -> Prop) (r : res A) : Prop := match r with Ok a => Q a | Err _ => True | _ => False end.
Definition fsafe {A} (p : prog (res A)) : Prop := fpost (okq (fun _ => True)) p.

Lemma okq_returns {A} (Q : A -> Prop) : okq Q = returns Q.
Proof. reflexivity. Qed.

Lemma fpost_fsafe {A} (Q : A -> Prop) (p : prog (res A)) : fpost (returns Q) p -> fsafe p.
Proof. intros H. unfold fsafe. rewrite okq_returns. exact (fpost_returns_impl Q _ p (fun _ _ => I) H). Qed.

Lemma frun_ret {A} (a b : A) f f' : frun (Ret a) f b f' -> b = a /\ f' = f.
Proof. intros H. inversion H; subst. auto. Qed.

Lemma frun_do_inv {A} c (k : ret -> prog A) f a f' :
  frun (Do c k) f a f' ->
  frun (k (fst (exec c f))) (snd (exec c f)) a f' \/
  (faultable c /\ exists e g, (g = f \/ In g (mid_states c f)) /\ frun (k (RErr e)) g a f').
Proof.
  intros H. inversion H as [|c0 k0 f0 a0 f0' Hn|c0 k0 f0 e g0 a0 f0' Hf Hg Hn]; subst; [left; exact Hn|right].
  split; [exact Hf|]. exists e, g0. split; assumption.
Qed.

(* a step of which the program only asks whether it failed: it did not, or the error branch runs from the state an
   error leaves (that of [exec], or the state before the step, or an intermediate one) *)
Lemma frun_do_err_inv {A} c (pe : errno -> prog A) (p : prog A) f a f' :
  frun (Do c (fun r => match r with RErr e => pe e | _ => p end)) f a f' ->
  (not_err (fst (exec c f)) /\ frun p (snd (exec c f)) a f') \/
  (exists e g, (g = snd (exec c f) \/ g = f \/ In g (mid_states c f)) /\ frun (pe e) g a f').
Proof.
  intros H. apply frun_do_inv in H as [H|[_ [e [g [Hg H]]]]]; [|right; exists e, g; auto].
  destruct (fst (exec c f)); try (left; split; [exact I|exact H]). right. eauto.
Qed.

Lemma frun_bind {A B} (p : prog A) (g : A -> prog B) f b f'' :
  frun (bind p g) f b f'' -> exists a f', frun p f a f' /\ frun (g a) f' b f''.
Proof.
  revert f. induction p as [a|c k IH]; intros f H; cbn [bind] in H.
  - exists a, f. split; [constructor|exact H].
  - apply frun_do_inv in H as [Hn|[Hf [e [g0 [Hg Hn]]]]]; destruct (IH _ _ Hn) as [a [f' [H1 H2]]]; exists a, f'.
    + split; [apply FStep; exact H1|exact H2].
    + split; [eapply FFault; eassumption|exact H2].
Qed.

Lemma frun_step_ok c f (a : res unit) f' :
  frun (step_ok c) f a f' ->
  (a = fst (run (step_ok c) f) /\ f' = snd (run (step_ok c) f)) \/ (a = Err EIoErr /\ (f' = f \/ In f' (mid_states c f))).
Proof.
  unfold step_ok. intros H. apply frun_do_inv in H as [H|[_ [e [g [Hg H]]]]].
  - left. cbn [run]. destruct (exec c f) as [r f1]. cbn [fst snd] in H. destruct r; apply frun_ret in H as [-> ->]; auto.
  - right. apply frun_ret in H as [-> ->]. auto.
Qed.

Lemma frun_unlink_quiet_state {A} l (r r' : res A) f f' :
  frun (unlink_quiet l r) f r' f' -> r' = r /\ (f' = f \/ f' = remove f l).
Proof.
  unfold unlink_quiet. intros H.
  apply frun_do_inv in H as [H|[_ [e [g [Hg H]]]]]; apply frun_ret in H as [-> ->]; (split; [reflexivity|]).
  - unfold exec. destruct (lookup f l) as [[d| |t]|]; cbn [snd]; auto.
  - destruct Hg as [->|[]]. left. reflexivity.
Qed.
Lemma frun_unlink_quiet {A} l (r r' : res A) f f' : frun (unlink_quiet l r) f r' f' -> r' = r.
Proof. intros H. exact (proj1 (frun_unlink_quiet_state l r r' f f' H)). Qed.

Theorem frun_invariant {A} (P : fs -> Prop) (S : sys -> fs -> Prop) :
  (forall c f, P f -> S c f -> P (snd (exec c f)) /\ Forall P (mid_states c f)) ->
  forall (p : prog A) f a f', P f -> fsteps S p f -> frun p f a f' -> P f'.
Proof.
  intros Hstep p f a f' HP Hs Hr. induction Hr as [a f|c k f a f'' _ IH|c k f e g a f'' Hf Hg _ IH]; cbn [fsteps] in Hs.
  - exact HP.
  - destruct Hs as [Hc [Hn _]]. apply IH; [apply (Hstep c f HP Hc)|exact Hn].
  - destruct Hs as [Hc [_ Hfa]]. apply IH; [|apply Hfa; [exact Hf|exact Hg]].
    destruct Hg as [->|Hin]; [exact HP|]. destruct (Hstep c f HP Hc) as [_ Hm]. rewrite Forall_forall in Hm. apply Hm. exact Hin.
Qed.

Lemma all_steps_fsteps {A} (S' : sys -> Prop) (S : sys -> fs -> Prop) (p : prog A) :
  (forall c f, S' c -> S c f) -> all_steps S' p -> forall f, fsteps S p f.
Proof.
  intros HS. induction p as [a|c k IH]; intros H f; cbn [fsteps all_steps] in *; [exact I|].
  destruct H as [Hc Hk]. split; [apply HS; exact Hc|]. split; [apply IH; apply Hk|]. intros _ e g _. apply IH. apply Hk.
Qed.

Lemma fsteps_bind {A B} (S : sys -> fs -> Prop) (p : prog A) (g : A -> prog B) f :
  fsteps S p f -> (forall a f', frun p f a f' -> fsteps S (g a) f') -> fsteps S (bind p g) f.
Proof.
  revert f. induction p as [a|c k IH]; intros f Hp Hg; cbn [bind fsteps] in *.
  - apply Hg. constructor.
  - destruct Hp as [Hc [Hn Hfa]]. split; [exact Hc|]. split.
    + apply IH; [exact Hn|]. intros a f' Hr. apply Hg. apply FStep. exact Hr.
    + intros Hf e g0 Hg0. apply IH; [apply Hfa; [exact Hf|exact Hg0]|]. intros a f' Hr. apply Hg.
      eapply FFault; [exact Hf|exact Hg0|exact Hr].
Qed.

Lemma fsteps_impl {A} (S S' : sys -> fs -> Prop) (p : prog A) f :
  (forall c g, S c g -> S' c g) -> fsteps S p f -> fsteps S' p f.
Proof.
  intros H. revert f. induction p as [a|c k IH]; intros f; cbn [fsteps]; [auto|].
  intros (H1 & H2 & H3). split; [auto|]. split; [auto|]. intros Hf e g Hg. apply IH. apply H3; assumption.
Qed.

Lemma fsteps_and {A} (S S' : sys -> fs -> Prop) (p : prog A) f :
  fsteps S p f -> fsteps S' p f -> fsteps (fun c g => S c g /\ S' c g) p f.
Proof.
  revert f. induction p as [a|c k IH]; intros f; cbn [fsteps]; [auto|].
  intros (H1 & H2 & H3) (H4 & H5 & H6). split; [auto|]. split; [auto|]. intros Hf e g Hg. apply IH; auto.
Qed.

Lemma fsteps_steps_ok {A} (S : sys -> fs -> Prop) (p : prog A) f : fsteps S p f -> steps_ok S p f.
Proof.
  revert f. induction p as [a|c k IH]; intros f; cbn [fsteps steps_ok]; [auto|].
  intros (H1 & H2 & _). split; [exact H1|]. destruct (exec c f). exact (IH _ _ H2).
Qed.

Section Fa.
Variable hash : algo -> bytes -> bytes.
Hypothesis HL : HashLen hash.

Notation T := (fun _ => True).

Lemma read_file_any l : fpost (okq T) (read_file l).
Proof. rewrite okq_returns. apply read_file_returns. Qed.

Theorem content_inv_faulty {A} (p : prog A) f a f' :
  ContentInv hash f -> fsteps (csafe hash) p f -> frun p f a f' -> ContentInv hash f'.
Proof. apply frun_invariant. exact (step_content hash). Qed.

Corollary content_inv_faulty_all {A} (p : prog A) f a f' :
  all_steps csafe' p -> ContentInv hash f -> frun p f a f' -> ContentInv hash f'.
Proof. intros Hp Hc. apply content_inv_faulty; [exact Hc|]. apply (all_steps_fsteps csafe'); [apply csafe'_csafe|exact Hp]. Qed.

Lemma no_rename_fsteps {A} data (p : prog A) f : all_steps (fun c => forall s d, c <> Rename s d) p -> fsteps (rename_ok data) p f.
Proof.
  intros H. revert f. apply (all_steps_fsteps (fun c => forall s d, c <> Rename s d)); [|exact H].
  intros c g Hc. destruct c; try exact I. exfalso. exact (Hc _ _ eq_refl).
Qed.

Lemma publish_frename f w cp sri :
  lookup f (w_tmp w) = Some (File (w_data w)) -> fsteps (rename_ok (w_data w)) (publish w cp sri) f.
Proof.
  intros Hl.
  assert (forall (r : res integrity) g, fsteps (rename_ok (w_data w)) (unlink_quiet (w_tmp w) r) g) as Hu.
  { intros r g. apply no_rename_fsteps. apply unlink_quiet_steps. discriminate. }
  assert (forall g r, fsteps (rename_ok (w_data w))
            (match r with RErr _ => Do (Exists (InCache cp)) (fun r2 => match r2 with RBool true => unlink_quiet (w_tmp w) (Ok sri)
                                                                              | _ => unlink_quiet (w_tmp w) (Err EIoErr) end)
                        | _ => Ret (Ok sri) end) g) as Hk.
  { intros g r. apply no_rename_fsteps. destruct r; try exact I. split; [discriminate|].
    intros r2. destruct r2 as [| |[|]| | | |]; apply unlink_quiet_steps; discriminate. }
  split; [exact I|]. split; [|intros _ e g _; apply Hu].
  pose proof (mkdirs_keeps f (prefixes (parent cp)) _ _ Hl) as Hl1. rewrite exec_mkdirall.
  destruct (mkdirs f (prefixes (parent cp))) as [r0 f1]. cbn [fst snd] in *.
  destruct r0; try apply Hu; (cbn [fsteps]; split; [exact Hl1|split; [exact (Hk _ _)|intros _ e g _; exact (Hk g (RErr e))]]).
Qed.

Lemma trim_frun f w rt f2 :
  WInv f w -> frun (trim w) f rt f2 -> match rt with Ok _ => lookup f2 (w_tmp w) = Some (File (w_data w)) | _ => True end.
Proof.
  intros [[n Hn] [Hwr [d [Hl Hm]]]] Hr. unfold trim in Hr. destruct (w_map w) as [sz|].
  - destruct Hm as [Hlen [Hpos [Htake Hle]]]. destruct (w_pos w <? sz) eqn:Elt.
    + apply frun_step_ok in Hr as [[-> ->]|[-> _]]; [|exact I].
      unfold step_ok. cbn [run]. rewrite (exec_truncate f _ d _ Hl). cbn [run fst snd]. rewrite lookup_update_eq, Htake. reflexivity.
    + apply frun_ret in Hr as [-> ->]. apply N.ltb_ge in Elt. assert (w_pos w = lenN d) as Epos by lia.
      rewrite Epos, takeN_all in Htake. rewrite Hl, Htake. reflexivity.
  - apply frun_ret in Hr as [-> ->]. rewrite <- Hm. exact Hl.
Qed.

(* in faulty runs too, the publishing rename is issued only when the temp file holds the hashed bytes: a failed trim or
   a failed mkdir ends the call (the temp file is unlinked), and the intermediate states of a mkdir keep every node *)
Lemma close_writer_frename f w : WInv f w -> fsteps (rename_ok (w_data w)) (close_writer hash w) f.
Proof.
  intros Hw. unfold close_writer. destruct (content_path _) as [cp|]; [|apply no_rename_fsteps, unlink_quiet_steps; discriminate].
  apply fsteps_bind.
  - exact (all_steps_fsteps _ _ _ (fun c g => tmp_step_rename_ok _ _ c g) (trim_steps w) f).
  - intros rt f2 Hr. pose proof (trim_frun f w rt f2 Hw Hr) as Hafter.
    destruct rt; try (apply no_rename_fsteps, unlink_quiet_steps; discriminate). apply publish_frename. exact Hafter.
Qed.

(* a commit in which any steps fail never puts a file that does not match its address under content-v2 *)
Theorem commit_faulty_content f w now r f' :
  WInv f w -> ContentInv hash f -> frun (commit hash w now) f r f' -> ContentInv hash f'.
Proof.
  intros Hw Hc. apply content_inv_faulty; [exact Hc|].
  apply (fsteps_impl (fun c g => commit_step hash w c /\ rename_ok (w_data w) c g)).
  { intros c g [H1 H2]. exact (commit_step_csafe hash HL w c g (proj1 Hw) H1 H2). }
  apply fsteps_and; [apply (all_steps_fsteps (commit_step hash w)); [auto|apply commit_steps]|].
  unfold commit, rbind. apply fsteps_bind; [apply close_writer_frename; exact Hw|].
  intros a f1 _. destruct a as [wsri| | | |]; try exact I.
  pose proof (commit_rest_eq hash w now wsri) as E. cbv zeta in E |- *. rewrite E.
  exact (all_steps_fsteps (fun c => forall g, rename_ok (w_data w) c g) _ _ (fun c g H => H g) (commit_rest_no_rename hash w now wsri _) f1).
Qed.

(* in a straight-line program the first failing step ends the run: the final state of a faulty run is the final state
   of the fault-free run, or (with an error answer) one of its crash states *)
Lemma frun_seq {V} cs (v : V) f r f' :
  frun (seq_prog cs v) f r f' ->
  (r = fst (run (seq_prog cs v) f) /\ f' = snd (run (seq_prog cs v) f)) \/
  (r = Err EIoErr /\ In f' (crash_states (seq_prog cs v) f)).
Proof.
  revert f. induction cs as [|c cs IH]; intros f H.
  - apply frun_ret in H as [-> ->]. left. split; reflexivity.
  - rewrite run_seq_cons. cbn [seq_prog fold_right] in H |- *. unfold rbind, step_ok in H |- *. cbn [bind] in H |- *.
    cbn [crash_states]. apply frun_do_inv in H as [Hn|[_ [e [g [Hg Hn]]]]].
    + destruct (exec c f) as [r0 f1]. cbn [fst snd] in *.
      destruct r0; cbn [is_err bind] in Hn |- *;
        try (destruct (IH f1 Hn) as [[-> ->]|[-> Hin]]; [left; split; reflexivity|right; split; [reflexivity|right; apply in_or_app; right; exact Hin]]).
      apply frun_ret in Hn as [-> ->]. left. split; reflexivity.
    + cbn [bind] in Hn. apply frun_ret in Hn as [-> ->]. right. split; [reflexivity|].
      destruct Hg as [->|Hin]; [left; reflexivity|right; apply in_or_app; left; exact Hin].
Qed.

Theorem insert_faulty f key o now r f' :
  IndexInv f -> wf_rec hash (smeta_of key o now) -> PrefixFree hash (encode_smeta (smeta_of key o now)) ->
  frun (insert hash key o now) f r f' ->
  (SameIdx hash f f' \/ f' = snd (run (insert hash key o now) f)) /\
  (forall i, r = Ok i -> f' = snd (run (insert hash key o now) f)).
Proof.
  intros Hinv Hwf Hpf Hr. pose proof (insert_crash_atomic hash f key o now Hinv Hwf Hpf) as Hall.
  rewrite insert_is_seq in *. apply frun_seq in Hr as [[-> ->]|[-> Hin]].
  - split; [right; reflexivity|intros; reflexivity].
  - rewrite Forall_forall in Hall. split; [exact (Hall f' Hin)|intros i Hi; discriminate].
Qed.

Lemma resolve_remove_other f t l : (forall n, t <> Ext n) -> t <> l -> resolve (remove f t) l = resolve f l.
Proof.
  intros Hext Hne. unfold resolve. rewrite lookup_remove_neq by congruence.
  destruct (lookup f l) as [[d| |[n|tx]]|]; try reflexivity. rewrite lookup_remove_neq by (apply Hext). reflexivity.
Qed.

Lemma exists_branch g cp n sri0 sri f' :
  frun (Do (Exists (InCache cp)) (fun r2 => match r2 with
          | RBool true => unlink_quiet (InCache [bs "tmp"; n]) (Ok sri0)
          | _ => unlink_quiet (InCache [bs "tmp"; n]) (@Err integrity EIoErr) end)) g (Ok sri) f' ->
  InCache [bs "tmp"; n] <> InCache cp -> resolve f' (InCache cp) <> None.
Proof.
  intros H Hne. apply frun_do_inv in H as [Hn|[[] _]].
  unfold exec in Hn. cbn [fst snd] in Hn. destruct (resolve g (InCache cp)) as [nd|] eqn:Er.
  - apply frun_unlink_quiet_state in Hn as [_ [->| ->]].
    + rewrite Er. discriminate.
    + rewrite resolve_remove_other; [rewrite Er; discriminate|intros m; discriminate|exact Hne].
  - apply frun_unlink_quiet in Hn. discriminate.
Qed.

Lemma publish_faulty_ok f w sri0 sri f' :
  (exists n, w_tmp w = InCache [bs "tmp"; n]) -> lookup f (w_tmp w) = Some (File (w_data w)) ->
  frun (publish w (cpath hash (w_algo w) (w_data w)) sri0) f (Ok sri) f' ->
  lookup f' (InCache (cpath hash (w_algo w) (w_data w))) = Some (File (w_data w)) \/
  resolve f' (InCache (cpath hash (w_algo w) (w_data w))) <> None.
Proof.
  intros [n Hn] Hl Hr. unfold publish in Hr. set (cp := cpath hash (w_algo w) (w_data w)) in *.
  assert (InCache [bs "tmp"; n] <> InCache cp) as Htc by (apply tmp_not_content).
  apply frun_do_err_inv in Hr as [[_ Hr]|[e [g [_ Hr]]]]; [|apply frun_unlink_quiet in Hr; discriminate].
  assert (lookup (snd (exec (MkdirAll (parent cp)) f)) (w_tmp w) = Some (File (w_data w))) as Hl1.
  { rewrite exec_mkdirall. apply mkdirs_keeps. exact Hl. }
  set (f1 := snd (exec (MkdirAll (parent cp)) f)) in *. rewrite Hn in *.
  apply frun_do_err_inv in Hr as [[Hok Hr]|[e [g [_ Hr]]]]; [left|right; exact (exists_branch _ _ _ _ _ _ Hr Htc)].
  apply frun_ret in Hr as [_ ->]. revert Hok. unfold exec. rewrite Hl1.
  destruct (parent_ok _ (InCache cp)); [destruct (lookup _ (InCache cp)) as [[d0| |t0]|]|]; cbn [fst snd];
    try contradiction; intros _; apply lookup_update_eq.
Qed.

(* closing under faults: an Ok answer carries the digest of the bytes written, and the content path holds a file — the
   writer's own bytes (published by the rename), or something that was already there (the rename failed and [exists]
   said yes) *)
Theorem close_writer_faulty_ok f w sri f' :
  WInv f w ->
  frun (close_writer hash w) f (Ok sri) f' ->
  sri = sri_of hash (w_algo w) (w_data w) /\
  (lookup f' (InCache (cpath hash (w_algo w) (w_data w))) = Some (File (w_data w)) \/
   resolve f' (InCache (cpath hash (w_algo w) (w_data w))) <> None).
Proof.
  intros Hw Hr. split; [exact (fpost_frun _ _ _ _ _ (close_writer_returns hash HL w) Hr)|]. pose proof Hw as [Hn _].
  unfold close_writer in Hr. rewrite (content_path_computed hash _ _ HL) in Hr.
  apply frun_bind in Hr as [rt [f2 [Ht Hc]]]. pose proof (trim_frun f w rt f2 Hw Ht) as Hafter.
  destruct rt; try (apply frun_unlink_quiet in Hc; discriminate).
  exact (publish_faulty_ok f2 w _ sri f' Hn Hafter Hc).
Qed.

(* the whole commit: Ok means the close published (or found) the content, and for a keyed writer the index insert answered Ok
   from that state — [insert_faulty] then says the tree is that of the complete insert *)
Theorem commit_faulty_ok f w now i f' :
  WInv f w ->
  frun (commit hash w now) f (Ok i) f' ->
  exists f1,
    frun (close_writer hash w) f (Ok (sri_of hash (w_algo w) (w_data w))) f1 /\
    (lookup f1 (InCache (cpath hash (w_algo w) (w_data w))) = Some (File (w_data w)) \/
     resolve f1 (InCache (cpath hash (w_algo w) (w_data w))) <> None) /\
    match w_key w with
    | None => f' = f1 /\ i = sri_of hash (w_algo w) (w_data w)
    | Some key => exists o', frun (insert hash key o' now) f1 (Ok i) f'
    end.
Proof.
  intros Hw Hr. unfold commit, rbind in Hr. apply frun_bind in Hr as [a [f1 [Hc Hrest]]].
  destruct a as [wsri|e| | |]; try (apply frun_ret in Hrest as [E _]; discriminate).
  destruct (close_writer_faulty_ok f w wsri f1 Hw Hc) as [-> Hcont].
  exists f1. split; [exact Hc|]. split; [exact Hcont|].
  destruct (o_sri (w_opts w)) as [d|]; [destruct (sri_matches d _)|]; try (apply frun_ret in Hrest as [E _]; discriminate).
  all: destruct (o_size (w_opts w)) as [s|]; [destruct (negb (s =? w_written w))|];
    try (apply frun_ret in Hrest as [E _]; discriminate).
  all: destruct (w_key w) as [key|]; [eexists; exact Hrest|apply frun_ret in Hrest as [E ->]; inversion E; auto].
Qed.

(* the steps of a one-shot write in which any steps fail: those of opening a writer, then data steps and the commit of a
   writer whose temp file is an entry of tmp/ *)
Lemma oneshot_fsteps (S : sys -> Prop) fl key o data now f :
  (forall c, open_step c -> S c) ->
  (forall w c, tmpfile (w_tmp w) -> tmp_step (w_tmp w) c \/ commit_step hash w c -> S c) ->
  fsteps (fun c _ => S c) (oneshot hash fl key o data now) f.
Proof.
  intros Ho Hw.
  assert (forall w g, tmpfile (w_tmp w) -> fsteps (fun c _ => S c) (commit hash w now) g) as Hc.
  { intros w g Ht. apply (all_steps_fsteps (commit_step hash w)); [|apply commit_steps]. intros c _ H. exact (Hw w c Ht (or_intror H)). }
  unfold oneshot, rbind at 1. apply fsteps_bind; [exact (all_steps_fsteps _ _ _ (fun c _ => Ho c) (open_writer_steps fl key o) f)|].
  intros r f1 Hr. pose proof (fpost_frun _ _ _ _ _ (open_writer_returns fl key o) Hr) as Q.
  destruct r as [w|e| | |]; try exact I. destruct Q as [Ht _].
  destruct data as [|b data]; [exact (Hc w f1 Ht)|]. apply fsteps_bind.
  - apply (all_steps_fsteps (tmp_step (w_tmp w))); [|apply write_chunk_steps]. intros c _ H. exact (Hw w c Ht (or_introl H)).
  - intros r2 f2 Hr2. pose proof (fpost_frun _ _ _ _ _ (write_chunk_returns w (b :: data)) Hr2) as Q2.
    destruct r2 as [w'|e| | |]; try contradiction.
    + apply Hc. rewrite (proj1 Q2). exact Ht.
    + apply (all_steps_fsteps S); [auto|]. apply unlink_quiet_steps. exact (Hw w (Unlink (w_tmp w)) Ht (or_introl eq_refl)).
Qed.

End Fa.
