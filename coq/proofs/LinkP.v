(* LinkP.v — C19: link_to.  The content path becomes a symlink to the caller's file; reads go through the link and are
   verified like any other read; no step ever touches a location outside the cache; declared size / integrity are
   enforced by the same decision rule as a write's commit. *)
From CC Require Import Bytes Sri Fs Prog Api BytesP FsP ProgP StepsP SriP IndexP ReadP WriteP CommitP ConfineP.
From Coq Require Import Lia.
Local Open Scope N_scope.

Section L.
Variable hash : algo -> bytes -> bytes.
Hypothesis HL : HashLen hash.

Lemma link_step_confined dst cp c : link_step cp c -> confined dst c.
Proof.
  intros H. apply touches_confined. intros x Hx.
  destruct (link_step_touches cp c H x Hx) as [Hin| ->]; [exact (paths_in_cache _ x Hin)|eexists; reflexivity].
Qed.

Lemma commit_linker_step_confined dst l c : commit_linker_step hash l c -> confined dst c.
Proof. intros [(cp & _ & H)|(k & _ & H)]; [exact (link_step_confined dst cp c H)|exact (index_step_confined dst _ c H)]. Qed.

(* every step, for every answer, stays inside the cache: whatever the tree and the arguments, linking leaves every file of
   the caller exactly as it was *)
Theorem link_never_writes_target f l now n :
  lookup (snd (run (commit_linker hash l now) f)) (Ext n) = lookup f (Ext n).
Proof.
  apply (touches_frame in_cache); [|intros [p E]; discriminate].
  refine (all_steps_impl _ _ _ _ (commit_linker_steps hash l now)). intros c Hc x Hx.
  destruct (commit_linker_step_confined None l c Hc x Hx) as [H|H]; [exact H|discriminate].
Qed.

Lemma outside_content_index f f' :
  (forall x, ~ is_content x -> lookup f' x = lookup f x) -> forall x, is_index x -> lookup f' x = lookup f x.
Proof. intros H x Hx. apply H. exact (index_not_content x Hx). Qed.

(* what remains is the decision of a write's commit, on the writer state with the linker's key, options and byte count *)
Definition link_rest (l : lstate) (now : N) : prog (res integrity) :=
  let data := l_seen l ++ l_rest l in
  commit_rest hash (mkW (l_key l) (l_opts l) (l_algo l) (Ext (l_target l)) None 0 (lenN data) data) now
              (sri_of hash (l_algo l) data).

Lemma commit_linker_run f l now :
  ContentShape f ->
  let data := l_seen l ++ l_rest l in
  let cp := InCache (cpath hash (l_algo l) data) in
  lookup f cp = None ->
  exists f1,
    run (commit_linker hash l now) f = run (link_rest l now) f1 /\
    lookup f1 cp = Some (Symlink (LAbs (l_target l))) /\
    (forall x, ~ is_content x -> lookup f1 x = lookup f x).
Proof.
  intros Hcs data cp Hnone. unfold commit_linker. fold data. rewrite (content_path_computed hash _ _ HL).
  destruct (shard_mkdir hash f (l_algo l) data Hcs) as (f1 & Hmk & Hpar & Hfr).
  assert (lookup f1 cp = None) as Hcp1.
  { rewrite <- Hnone. destruct (Hfr cp) as [E|(_ & _ & p & Ep & Hp)]; [exact E|]. inversion Ep; subst p. cbn in Hp. lia. }
  exists (update f1 cp (Symlink (LAbs (l_target l)))). split; [|split; [apply lookup_update_eq|]].
  - rewrite (run_rbind_ok _ _ _ tt f1) by (apply (run_step_ok _ _ ROk); [exact Hmk|exact I]). cbn [run]. fold cp.
    assert (exec (SymlinkTo (LAbs (l_target l)) cp) f1 = (ROk, update f1 cp (Symlink (LAbs (l_target l))))) as ->.
    { unfold exec. rewrite Hcp1. unfold parent_ok, cp. rewrite (is_dir_of_lookup _ _ Hpar). reflexivity. }
    exact (f_equal (fun p => run p _) (commit_rest_eq hash (mkW (l_key l) (l_opts l) (l_algo l) (Ext (l_target l)) None 0 (lenN data) data) now _)).
  - intros x Hx. rewrite lookup_update_neq by (intros <-; apply Hx; eexists; reflexivity).
    destruct (Hfr x) as [E|(_ & _ & p & -> & _)]; [exact E|]. destruct Hx. eexists. reflexivity.
Qed.

Theorem link_read_back f key target d now :
  CacheInv f -> lookup f (Ext target) = Some (File d) ->
  lookup f (InCache (cpath hash Sha256 d)) = None ->
  let o' := commit_opts (mkWopts None None (Some (lenN d)) None None None) (sri_of hash Sha256 d) (lenN d) in
  wf_rec hash (smeta_of key o' now) ->
  let f' := snd (run (link_to hash (Some key) target now) f) in
  fst (run (link_to hash (Some key) target now) f) = Ok (sri_of hash Sha256 d) /\
  run (read hash key) f' = (Ok d, f') /\
  run (read_hash hash (sri_of hash Sha256 d)) f' = (Ok d, f') /\
  lookup f' (InCache (cpath hash Sha256 d)) = Some (Symlink (LAbs target)) /\
  lookup f' (Ext target) = Some (File d) /\
  abs_idx hash f' key = new_entry key o' now /\
  (forall k, k <> key -> abs_idx hash f' k = abs_idx hash f k).
Proof.
  intros [Hi [Hc Ht]] Htgt Hnone o' Hwf f'.
  set (l := mkL (Some key) (mkWopts None None (Some (lenN d)) None None None) Sha256 target d []).
  destruct (commit_linker_run f l now Hc Hnone) as (f1 & Hrun & Hcp & Hfr).
  pose proof (outside_content_index f f1 Hfr) as Hidx.
  (* the target is read, the link made, and the declared size is the size read: what remains is the insert *)
  assert (run (link_to hash (Some key) target now) f = run (insert hash key o' now) f1) as Hlink.
  { unfold link_to, open_linker, rbind. rewrite !run_bind, read_file_eq. unfold resolve. rewrite Htgt. cbn [fst snd run o_algo]. fold l.
    rewrite Hrun. unfold link_rest. erewrite commit_rest_accept; [reflexivity|reflexivity|apply N.eqb_refl]. }
  destruct (insert_abs hash f1 key o' now (IndexInv_frame f f1 Hi Hidx) Hwf) as (Hi2 & Hres & Habs & Hfr2).
  { intros i Ei. injection Ei as <-. exact (parse_entry_computed hash _ _ HL). }
  subst f'. rewrite Hlink. set (f2 := snd (run (insert hash key o' now) f1)) in *.
  assert (lookup f2 (InCache (cpath hash Sha256 d)) = Some (Symlink (LAbs target))) as Hcp2
    by (rewrite Hfr2 by discriminate; exact Hcp).
  assert (lookup f2 (Ext target) = Some (File d)) as Htgt2
    by (rewrite Hfr2, Hfr by (try intros [p E]; discriminate); exact Htgt).
  assert (run (read_hash hash (sri_of hash Sha256 d)) f2 = (Ok d, f2)) as Hrh.
  { rewrite (read_hash_eq hash f2 _ _ (content_path_computed hash Sha256 d HL)). unfold checked, resolve. rewrite Hcp2, Htgt2.
    unfold check_res. rewrite sri_check_self. reflexivity. }
  assert (abs_idx hash f2 key = new_entry key o' now) as Hk by (rewrite Habs, bytes_eqb_refl; reflexivity).
  split; [rewrite Hres; reflexivity|]. split; [|repeat (split; [assumption|])].
  - rewrite (read_by_key hash f2 key _ Hi2 Hk). exact Hrh.
  - intros k Hne. rewrite Habs, (proj2 (bytes_eqb_neq k key) Hne). exact (abs_idx_frame hash f f1 Hidx k).
Qed.

(* the target changes after linking: errors, never other bytes (instance of C01 on the arbitrary tree) *)
Theorem link_target_changed f i out :
  fst (run (read_hash hash i) f) = Ok out -> digest_ok hash i out.
Proof. intros H. exact (proj1 (proj2 (read_hash_sound hash f i) out H)). Qed.

Theorem link_target_removed f a d target :
  lookup f (InCache (cpath hash a d)) = Some (Symlink (LAbs target)) -> lookup f (Ext target) = None ->
  fst (run (read_hash hash (sri_of hash a d)) f) = Err EIoErr.
Proof.
  intros Hcp Hn. rewrite (read_hash_eq hash f _ _ (content_path_computed hash a d HL)). unfold resolve. rewrite Hcp, Hn. reflexivity.
Qed.

(* declared options are enforced as for writes; a rejected link maps nothing *)
Theorem link_rejected f l now :
  ContentShape f ->
  lookup f (InCache (cpath hash (l_algo l) (l_seen l ++ l_rest l))) = None ->
  let data := l_seen l ++ l_rest l in
  (declared_ok (l_opts l) (sri_of hash (l_algo l) data) = None ->
     fst (run (commit_linker hash l now) f) = Err EIntegrity /\
     forall k, abs_idx hash (snd (run (commit_linker hash l now) f)) k = abs_idx hash f k) /\
  (forall final s, declared_ok (l_opts l) (sri_of hash (l_algo l) data) = Some final -> o_size (l_opts l) = Some s -> s <> lenN data ->
     fst (run (commit_linker hash l now) f) = Err (ESizeMismatch s (lenN data)) /\
     forall k, abs_idx hash (snd (run (commit_linker hash l now) f)) k = abs_idx hash f k).
Proof.
  intros Hc Hnone data. destruct (commit_linker_run f l now Hc Hnone) as (f1 & Hrun & _ & Hfr).
  pose proof (abs_idx_frame hash f f1 (outside_content_index f f1 Hfr)) as Habs.
  rewrite Hrun. unfold link_rest, commit_rest. fold data. cbn [w_opts w_key w_written]. split.
  - intros Hd. rewrite Hd. split; [reflexivity|exact Habs].
  - intros final s Hd Hs Hne. rewrite Hd, Hs, (proj2 (N.eqb_neq _ _) Hne). split; [reflexivity|exact Habs].
Qed.

End L.
