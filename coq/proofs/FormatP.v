(* FormatP.v — the on-disk format (C17): paths, the language of bucket files, and a deliberately naive reader
   written from the format sentence alone, shown to agree with the library's reader on every file the library
   can produce (and, conversely, the library's reader reads every file a naive writer produces). *)
From CC Require Import Bytes Codec Json Sri Record Fs Prog Api BytesP CodecP LsP FsP RecordP IndexP WriteP HashExtP.
Local Open Scope N_scope.

Section F.
Variable hash : algo -> bytes -> bytes.

Theorem bucket_path_format key :
  let h := hex_encode (hash Sha1 key) in
  bucket_path hash key = [bs "index-v5"; takeN 2 h; takeN 2 (dropN 2 h); dropN 4 h].
Proof. reflexivity. Qed.

Theorem content_path_format a data :
  HashLen hash ->
  let h := hex_encode (hash a data) in
  content_path (sri_of hash a data) = Some [bs "content-v2"; algo_name a; takeN 2 h; takeN 2 (dropN 2 h); dropN 4 h].
Proof. intros HL. exact (content_path_computed hash a data HL). Qed.

Theorem algo_names :
  map algo_name [Sha1; Sha256; Sha384; Sha512; Xxh3] = [bs "sha1"; bs "sha256"; bs "sha384"; bs "sha512"; bs "xxh3"].
Proof. reflexivity. Qed.

Theorem record_format m :
  record_bytes hash m =
  nl :: hex_encode (hash Sha256 (encode_smeta m)) ++ tab :: encode_smeta m.
Proof. reflexivity. Qed.

Theorem record_json_fields m :
  encode_smeta m =
  ser (JObj [ (bs "key", JStr (sm_key m));
              (bs "integrity", match sm_integrity m with Some s => JStr s | None => JNull end);
              (bs "time", JInt (Z.of_N (sm_time m)));
              (bs "size", JInt (Z.of_N (sm_size m)));
              (bs "metadata", sm_metadata m);
              (bs "raw_metadata", jraw (sm_raw m)) ]).
Proof. reflexivity. Qed.

Definition bucket_of (ms : list smeta) : bytes := List.concat (map (record_bytes hash) ms).

Lemma bucket_of_app ms ms' : bucket_of (ms ++ ms') = bucket_of ms ++ bucket_of ms'.
Proof. unfold bucket_of. rewrite map_app. apply concat_app. Qed.

Lemma bucket_of_snoc ms m : bucket_of (ms ++ [m]) = bucket_of ms ++ record_bytes hash m.
Proof. rewrite bucket_of_app. unfold bucket_of at 2. cbn [map List.concat]. rewrite app_nil_r. reflexivity. Qed.

(* the library's reader on a well-formed bucket returns exactly the records, in order *)
Theorem entries_bucket_of ms :
  Forall (wf_rec hash) ms -> entries hash (bucket_of ms) = ms /\ no_pending_cr (bucket_of ms).
Proof.
  induction ms as [|m ms IH] using rev_ind; intros Hw.
  - split; reflexivity.
  - apply Forall_app in Hw as [Hms Hm]. inversion Hm as [|? ? Hm' _]; subst.
    destruct (IH Hms) as [He Hcr]. rewrite bucket_of_snoc.
    destruct (entries_app_record hash _ m Hcr Hm') as [H1 H2]. rewrite H1, He. auto.
Qed.

(* every insert / removal appends one record to the key's bucket and touches no other bucket *)
Theorem insert_appends f key o now :
  IndexInv f -> wf_rec hash (smeta_of key o now) ->
  bucket_bytes hash (snd (run (insert hash key o now) f)) key
  = bucket_bytes hash f key ++ record_bytes hash (smeta_of key o now).
Proof.
  intros Hinv Hwf. destruct (insert_run hash f key o now Hinv Hwf) as [f' [Hrun [_ [Hb _]]]].
  rewrite Hrun. cbn [snd]. unfold bucket_bytes at 1. rewrite Hb. reflexivity.
Qed.

Fixpoint hist_records (h : list hop) (b : path) : list smeta :=
  match h with
  | [] => []
  | HIns key o now :: t =>
      if path_eqb (bucket_path hash key) b then smeta_of key o now :: hist_records t b else hist_records t b
  | HDel key now :: t =>
      if path_eqb (bucket_path hash key) b then smeta_of key wopts0 now :: hist_records t b else hist_records t b
  end.

Definition bucket_at (f : fs) (b : path) : bytes :=
  match lookup f (InCache b) with Some (File d) => d | _ => [] end.

Lemma exec_hop_bucket f x b :
  IndexInv f -> wf_hop hash x ->
  (exists a c d, b = [index_dir; a; c; d]) ->
  bucket_at (exec_hop hash f x) b = bucket_at f b ++ bucket_of (hist_records [x] b).
Proof.
  intros Hinv Hw Hb.
  assert (forall key o now, wf_rec hash (smeta_of key o now) ->
            bucket_at (snd (run (insert hash key o now) f)) b
            = bucket_at f b ++ bucket_of (if path_eqb (bucket_path hash key) b then [smeta_of key o now] else [])) as Hins.
  { intros key o now Hwf. unfold bucket_at at 1. rewrite (insert_buckets hash f key o now b Hinv Hwf Hb).
    destruct (path_eqb _ b) eqn:E; [apply path_eqb_eq in E; rewrite <- E|];
      unfold bucket_of; cbn [map List.concat]; rewrite app_nil_r; reflexivity. }
  destruct x as [key o now|key now]; cbn [exec_hop hist_records wf_hop] in *.
  - destruct Hw as [Hw _]. rewrite (Hins key o now Hw). destruct (path_eqb (bucket_path hash key) b); reflexivity.
  - rewrite delete_snd, (Hins key wopts0 now Hw). destruct (path_eqb (bucket_path hash key) b); reflexivity.
Qed.

Lemma hist_records_app h1 h2 b : hist_records (h1 ++ h2) b = hist_records h1 b ++ hist_records h2 b.
Proof.
  induction h1 as [|x h1 IH]; [reflexivity|]. destruct x; cbn [app hist_records]; destruct (path_eqb _ b); cbn [app]; rewrite IH; reflexivity.
Qed.

(* after ANY history, every bucket file is its initial bytes followed by the whole records of the inserts and
   removals that hash to it, in order: (nl . hex64 . tab . json)* *)
Theorem bucket_language h f0 b :
  IndexInv f0 -> Forall (wf_hop hash) h -> (exists a c d, b = [index_dir; a; c; d]) ->
  bucket_at (fold_left (exec_hop hash) h f0) b = bucket_at f0 b ++ bucket_of (hist_records h b).
Proof.
  revert f0. induction h as [|x h IH]; intros f0 Hinv Hw Hb.
  - cbn [fold_left hist_records]. unfold bucket_of. cbn. rewrite app_nil_r. reflexivity.
  - inversion Hw as [|? ? Hx Hh]; subst. cbn [fold_left].
    destruct (exec_hop_spec hash f0 x Hinv Hx) as [Hinv' _].
    rewrite (IH _ Hinv' Hh Hb), (exec_hop_bucket f0 x b Hinv Hx Hb).
    change (x :: h) with ([x] ++ h). rewrite hist_records_app, bucket_of_app, app_assoc. reflexivity.
Qed.

(* "each record is a newline, the hex SHA-256 of the JSON text (64 characters), a tab, and a one-line JSON object" *)
Definition naive_line (l : bytes) : list smeta :=
  let h := takeN 64 l in
  match dropN 64 l with
  | t :: json =>
      if Byte.eqb t tab && bytes_eqb h (hex_encode (hash Sha256 json)) then
        match parse_smeta json with Some m => [m] | None => [] end
      else []
  | [] => []
  end.
Definition naive_entries (f : bytes) : list smeta := flat_map naive_line (split nl f).

(* "the last record of a key decides; integrity null marks a removal": scan from the end *)
Fixpoint naive_scan (key : bytes) (rs : list smeta) : option meta :=
  match rs with
  | [] => None
  | e :: t => if bytes_eqb (sm_key e) key && parses e then meta_of e else naive_scan key t
  end.
Definition naive_find (key : bytes) (f : bytes) : option meta := naive_scan key (rev (naive_entries f)).

Hypothesis Sha256Len : forall d, lenN (hash Sha256 d) = 32.

Lemma dropN_app_exact (a b : bytes) : dropN (lenN a) (a ++ b) = b.
Proof. rewrite dropN_skipn, lenN_of_nat, Nat2N.id, skipn_app, skipn_all, Nat.sub_diag. reflexivity. Qed.

Lemma naive_line_record m : wf_rec hash m -> naive_line (record_line hash (encode_smeta m)) = [m].
Proof.
  intros [_ [_ Hp]]. unfold naive_line, record_line, hash_entry.
  set (hx := hex_encode (hash Sha256 (encode_smeta m))).
  assert (64 = lenN hx) as -> by (unfold hx; rewrite (lenN_hex_encode ), Sha256Len; reflexivity).
  rewrite takeN_app_exact, dropN_app_exact.
  rewrite byte_eqb_refl. fold hx. rewrite bytes_eqb_refl. cbn [andb]. rewrite Hp. reflexivity.
Qed.

Lemma naive_entries_app f line :
  (forall b, In b line -> Byte.eqb b nl = false) ->
  naive_entries (f ++ nl :: line) = naive_entries f ++ naive_line line.
Proof.
  intros Hnl. unfold naive_entries. rewrite split_app_sep, (split_no_sep nl line Hnl), flat_map_app.
  cbn [flat_map]. rewrite app_nil_r. reflexivity.
Qed.

Theorem naive_entries_bucket_of ms : Forall (wf_rec hash) ms -> naive_entries (bucket_of ms) = ms.
Proof.
  induction ms as [|m ms IH] using rev_ind; intros Hw; [reflexivity|].
  apply Forall_app in Hw as [Hms Hm]. inversion Hm as [|? ? Hm' _]; subst.
  rewrite bucket_of_snoc. unfold record_bytes. rewrite naive_entries_app.
  - rewrite (IH Hms), (naive_line_record m Hm'). reflexivity.
  - destruct Hm' as [Hc _]. intros x Hx. exact (proj1 (record_line_clean hash _ x Hc Hx)).
Qed.

Lemma rev_filter {A} (p : A -> bool) l : rev (filter p l) = filter p (rev l).
Proof.
  induction l as [|x l IH]; [reflexivity|]. cbn [rev filter]. rewrite filter_app. cbn [filter].
  destruct (p x); cbn [rev]; rewrite IH, ?app_nil_r; reflexivity.
Qed.

Lemma naive_scan_first_match key l :
  naive_scan key l = match first_match bytes meta bytes_eqb key (map view (filter parses l)) with Some o => o | None => None end.
Proof.
  induction l as [|e l IH]; [reflexivity|]. cbn [naive_scan filter]. destruct (parses e) eqn:Ep.
  - cbn [map first_match view fst snd]. rewrite andb_true_r. destruct (bytes_eqb (sm_key e) key); [reflexivity|exact IH].
  - rewrite andb_false_r. exact IH.
Qed.

Lemma naive_scan_find key es : naive_scan key (rev es) = find_in key es.
Proof.
  rewrite find_in_view, (gfind_first_match bytes meta bytes_eqb), <- map_rev, rev_filter.
  apply naive_scan_first_match.
Qed.

(* both directions of C17 in one statement: on every bucket in the format's language — whoever wrote it — the naive
   reader and the library's reader return the same records, hence the same lookups and listings *)
Theorem ref_reader_agrees ms key :
  Forall (wf_rec hash) ms ->
  naive_entries (bucket_of ms) = entries hash (bucket_of ms) /\
  naive_find key (bucket_of ms) = find_bytes hash key (bucket_of ms).
Proof.
  intros Hw. rewrite (naive_entries_bucket_of ms Hw), (proj1 (entries_bucket_of ms Hw)). split; [reflexivity|].
  unfold naive_find, find_bytes. rewrite (naive_entries_bucket_of ms Hw), (proj1 (entries_bucket_of ms Hw)).
  apply naive_scan_find.
Qed.

End F.

(* the writer and both readers use the hash through its values only *)
Section Ext.
Context {h h' : algo -> bytes -> bytes} (E : forall a d, h a d = h' a d).

Lemma bucket_of_ext ms : bucket_of h ms = bucket_of h' ms.
Proof. unfold bucket_of. f_equal. apply map_ext, (record_bytes_ext E). Qed.

Lemma naive_entries_ext d : naive_entries h d = naive_entries h' d.
Proof. apply flat_map_ext. intros l. unfold naive_line. destruct (dropN 64 l); [reflexivity|]. rewrite E. reflexivity. Qed.

Lemma naive_find_ext key d : naive_find h key d = naive_find h' key d.
Proof. unfold naive_find. rewrite naive_entries_ext. reflexivity. Qed.

End Ext.
