(* RemoveP.v — removals: tombstone (remove), remove_hash, remove_fully, clear.  Each removes exactly what it
   names; every other location of the tree (hence every other index entry and content file) is untouched. *)
From CC Require Import Bytes Sri Record Fs Prog Api BytesP FsP ProgP StepsP RecordP IndexP ReadP CommitP.
Local Open Scope N_scope.

Section Rm.
Variable hash : algo -> bytes -> bytes.

Theorem remove_scope f key now :
  IndexInv f -> wf_rec hash (smeta_of key wopts0 now) ->
  let f' := snd (run (delete hash key now) f) in
  fst (run (delete hash key now) f) = Ok tt /\
  IndexInv f' /\
  (forall k, abs_idx hash f' k = if bytes_eqb k key then None else abs_idx hash f k) /\
  (forall l, (forall p, l <> InCache (index_dir :: p)) -> lookup f' l = lookup f l) /\
  (forall l, l <> InCache (bucket_path hash key) -> lookup f l <> None -> lookup f' l = lookup f l) /\
  entries hash (bucket_bytes hash f' key) = entries hash (bucket_bytes hash f key) ++ [smeta_of key wopts0 now].
Proof.
  intros Hinv Hwf f'.
  destruct (insert_run hash f key wopts0 now Hinv Hwf) as [f1 [Hrun [Hinv1 [Hb Ho]]]].
  assert (run (delete hash key now) f = (Ok tt, f1)) as Hd.
  { unfold delete, rbind. rewrite run_bind, Hrun. reflexivity. }
  subst f'. rewrite Hd. cbn [fst snd].
  destruct (insert_abs hash f key wopts0 now Hinv Hwf) as [_ [_ [Habs Hfr]]]; [intros i Hi; discriminate|].
  rewrite Hrun in Habs, Hfr. cbn [snd] in Habs, Hfr.
  split; [reflexivity|]. split; [exact Hinv1|]. split; [exact Habs|]. split; [exact Hfr|]. split.
  - intros l Hl Hsome. destruct (Ho l Hl) as [H|[H _]]; [exact H|contradiction].
  - unfold bucket_bytes at 1. rewrite Hb. exact (proj1 (entries_app_record hash _ _ (bucket_bytes_clean hash f key Hinv) Hwf)).
Qed.

(* the listing of the key's bucket loses exactly that key *)
Theorem remove_listing f key now m :
  IndexInv f -> wf_rec hash (smeta_of key wopts0 now) ->
  let f' := snd (run (delete hash key now) f) in
  In m (ls_bytes hash (bucket_bytes hash f' key)) <-> (In m (ls_bytes hash (bucket_bytes hash f key)) /\ m_key m <> key).
Proof.
  intros Hinv Hwf f'. destruct (remove_scope f key now Hinv Hwf) as [_ [_ [_ [_ [_ He]]]]].
  fold f' in He. unfold ls_bytes. rewrite !ls_iff_find. unfold ls_bytes. rewrite He, find_in_app.
  unfold find_step. cbn [smeta_of sm_key sm_integrity wopts0 o_sri option_map].
  destruct (bytes_eqb key (m_key m)) eqn:E.
  - apply bytes_eqb_eq in E. split; [discriminate|]. intros [_ H]. congruence.
  - apply bytes_eqb_neq in E. split; [intros H; split; [exact H|congruence]|intros [H _]; exact H].
Qed.

Lemma run_unlink l0 f :
  run (step_ok (Unlink l0)) f =
  match lookup f l0 with
  | Some Dir => (Err EIoErr, f)
  | Some _ => (Ok tt, remove f l0)
  | None => (Err EIoErr, f)
  end.
Proof. unfold step_ok. cbn [run]. unfold exec. destruct (lookup f l0) as [[d| |t]|]; reflexivity. Qed.

Theorem remove_hash_scope f i :
  (forall l, (forall cp, content_path i = Some cp -> l <> InCache cp) ->
     lookup (snd (run (remove_hash i) f)) l = lookup f l) /\
  (forall cp, content_path i = Some cp ->
     (match lookup f (InCache cp) with
      | Some Dir => fst (run (remove_hash i) f) = Err EIoErr /\ snd (run (remove_hash i) f) = f
      | Some _ => fst (run (remove_hash i) f) = Ok tt /\ lookup (snd (run (remove_hash i) f)) (InCache cp) = None
      | None => fst (run (remove_hash i) f) = Err EIoErr /\ snd (run (remove_hash i) f) = f
      end)).
Proof.
  split.
  - intros l Hl. apply (touches_frame (fun x => exists cp, content_path i = Some cp /\ x = InCache cp)).
    + exact (all_steps_impl _ _ _ (unlink_step_touches _) (remove_hash_unlinks i)).
    + intros (cp & E & ->). exact (Hl cp E eq_refl).
  - intros cp Hcp. unfold remove_hash, with_cpath. rewrite Hcp, run_unlink.
    destruct (lookup f (InCache cp)) as [[d| |t]|]; cbn [fst snd]; auto using lookup_remove_eq.
Qed.

Lemma run_unlink_if_present l0 f :
  run (unlink_if_present l0) f =
  match lookup f l0 with
  | Some Dir => (Err EIoErr, f)
  | Some _ => (Ok tt, remove f l0)
  | None => (Ok tt, f)
  end.
Proof. unfold unlink_if_present. cbn [run]. unfold exec. destruct (lookup f l0) as [[d| |t]|]; reflexivity. Qed.

Lemma unlink_frame l0 f l : l <> l0 -> lookup (snd (exec (Unlink l0) f)) l = lookup f l.
Proof. intros Hl. destruct (exec_effect (Unlink l0) f _ l (or_introl eq_refl)) as [E|[Ht _]]; [exact E|contradiction]. Qed.

Lemma run_unlink_frame l0 f l : l <> l0 -> lookup (snd (run (step_ok (Unlink l0)) f)) l = lookup f l.
Proof. rewrite run_step_ok_snd. apply unlink_frame. Qed.

Lemma run_unlink_if_present_frame l0 f l : l <> l0 -> lookup (snd (run (unlink_if_present l0) f)) l = lookup f l.
Proof.
  intros Hl. rewrite <- (unlink_frame l0 f l Hl). unfold unlink_if_present. cbn [run].
  destruct (exec (Unlink l0) f) as [[| | | | | |[]] f1]; reflexivity.
Qed.

Theorem remove_fully_frame f key l :
  l <> InCache (bucket_path hash key) ->
  (forall m cp, fst (run (find hash key) f) = Ok (Some m) -> content_path (m_sri m) = Some cp -> l <> InCache cp) ->
  lookup (snd (run (remove_fully hash key) f)) l = lookup f l.
Proof.
  intros Hb Hc. unfold remove_fully. unfold rbind at 1. rewrite run_bind.
  pose proof (find_fs hash f key) as Hfs. destruct (run (find hash key) f) as [r f0] eqn:Ef. cbn [snd] in Hfs. subst f0.
  cbn [fst] in Hc. destruct r as [[m|]|e| | |]; try reflexivity.
  - unfold rbind. rewrite run_bind. unfold with_cpath. destruct (content_path (m_sri m)) as [cp|] eqn:Ecp; [|reflexivity].
    pose proof (run_unlink_if_present_frame (InCache cp) f l (Hc m cp eq_refl Ecp)) as H1.
    destruct (run (unlink_if_present (InCache cp)) f) as [r1 f1]. cbn [snd] in H1.
    destruct r1; cbn [run]; try exact H1. rewrite <- H1. apply run_unlink_frame. exact Hb.
  - unfold rbind. rewrite run_bind. cbn [run]. apply run_unlink_frame. exact Hb.
Qed.

Lemma remove_fully_run f key m cp :
  IndexInv f -> abs_idx hash f key = Some m -> content_path (m_sri m) = Some cp ->
  lookup f (InCache cp) <> Some Dir -> cp <> bucket_path hash key ->
  exists g, run (remove_fully hash key) f = (Ok tt, g) /\
    forall l, lookup g l = if loc_eqb (InCache cp) l || loc_eqb (InCache (bucket_path hash key)) l then None else lookup f l.
Proof.
  intros Hinv Habs Hcp Hnd Hneq.
  assert (exists d, lookup f (InCache (bucket_path hash key)) = Some (File d)) as [d Hd].
  { destruct (bucket_lookup hash f key Hinv) as [Hn|[d [Hd _]]]; [|eauto].
    unfold abs_idx, bucket_bytes in Habs. rewrite Hn in Habs. discriminate. }
  unfold remove_fully. unfold rbind at 1. rewrite run_bind, (find_run hash f key Hinv), Habs.
  unfold rbind. rewrite run_bind. unfold with_cpath. rewrite Hcp, run_unlink_if_present.
  assert (forall g, (forall l, lookup g l = if loc_eqb (InCache cp) l then None else lookup f l) ->
            exists g', run (step_ok (Unlink (InCache (bucket_path hash key)))) g = (Ok tt, g') /\
              forall l, lookup g' l = if loc_eqb (InCache cp) l || loc_eqb (InCache (bucket_path hash key)) l then None else lookup f l)
    as Hrest.
  { intros g Hg. rewrite run_unlink, Hg. replace (loc_eqb (InCache cp) _) with false by (symmetry; apply loc_eqb_neq; congruence).
    rewrite Hd. eexists. split; [reflexivity|]. intros l. rewrite lookup_remove, Hg.
    destruct (loc_eqb (InCache cp) l), (loc_eqb (InCache (bucket_path hash key)) l); reflexivity. }
  destruct (lookup f (InCache cp)) as [[x| |t]|] eqn:El; [|contradiction Hnd; reflexivity| |]; cbv beta iota; apply Hrest; intros l;
    rewrite ?lookup_remove; destruct (loc_eqb (InCache cp) l) eqn:E; try reflexivity.
  apply loc_eqb_eq in E. subst l. exact El.
Qed.

Theorem remove_fully_scope f key m cp nd :
  IndexInv f -> abs_idx hash f key = Some m -> content_path (m_sri m) = Some cp ->
  lookup f (InCache cp) = Some nd -> nd <> Dir -> cp <> bucket_path hash key ->
  let f' := snd (run (remove_fully hash key) f) in
  fst (run (remove_fully hash key) f) = Ok tt /\
  lookup f' (InCache cp) = None /\
  lookup f' (InCache (bucket_path hash key)) = None /\
  abs_idx hash f' key = None /\
  (forall l, l <> InCache cp -> l <> InCache (bucket_path hash key) -> lookup f' l = lookup f l).
Proof.
  intros Hinv Habs Hcp Hnd Hnodir Hneq f'.
  destruct (remove_fully_run f key m cp Hinv Habs Hcp) as (g & Hr & Hl); [rewrite Hnd; congruence|exact Hneq|].
  subst f'. rewrite Hr. cbn [fst snd]. split; [reflexivity|]. split; [rewrite Hl, loc_eqb_refl; reflexivity|].
  assert (lookup g (InCache (bucket_path hash key)) = None) as Hb by (rewrite Hl, loc_eqb_refl, orb_true_r; reflexivity).
  split; [exact Hb|]. split; [unfold abs_idx, bucket_bytes; rewrite Hb; reflexivity|].
  intros l H1 H2. rewrite Hl. apply not_eq_sym, loc_eqb_neq in H1, H2. rewrite H1, H2. reflexivity.
Qed.

(* the entry's content is already gone (shared with a key removed earlier, removed by address, or an earlier attempt
   of this call that failed later): the full removal still deletes the entry *)
Theorem remove_fully_content_gone f key m cp :
  IndexInv f -> abs_idx hash f key = Some m -> content_path (m_sri m) = Some cp ->
  lookup f (InCache cp) = None ->
  let f' := snd (run (remove_fully hash key) f) in
  fst (run (remove_fully hash key) f) = Ok tt /\
  lookup f' (InCache (bucket_path hash key)) = None /\
  abs_idx hash f' key = None /\
  (forall l, l <> InCache (bucket_path hash key) -> lookup f' l = lookup f l).
Proof.
  intros Hinv Habs Hcp Hnone f'.
  destruct (remove_fully_run f key m cp Hinv Habs Hcp) as (g & Hr & Hl); [rewrite Hnone; discriminate| |].
  { intros ->. unfold abs_idx, bucket_bytes in Habs. rewrite Hnone in Habs. discriminate. }
  subst f'. rewrite Hr. cbn [fst snd]. split; [reflexivity|].
  assert (lookup g (InCache (bucket_path hash key)) = None) as Hb by (rewrite Hl, loc_eqb_refl, orb_true_r; reflexivity).
  split; [exact Hb|]. split; [unfold abs_idx, bucket_bytes; rewrite Hb; reflexivity|].
  intros l H1. rewrite Hl. apply not_eq_sym, loc_eqb_neq in H1. rewrite H1, orb_false_r.
  destruct (loc_eqb (InCache cp) l) eqn:E; [|reflexivity]. apply loc_eqb_eq in E. subst l. symmetry. exact Hnone.
Qed.

(* no entry under the key (never written, or removed): what remains is the unlink of the bucket file *)
Theorem remove_fully_no_entry f key :
  IndexInv f -> abs_idx hash f key = None ->
  run (remove_fully hash key) f = run (step_ok (Unlink (InCache (bucket_path hash key)))) f.
Proof.
  intros Hinv Habs. unfold remove_fully. unfold rbind at 1. rewrite run_bind, (find_run hash f key Hinv), Habs. reflexivity.
Qed.

(* keys living in other buckets keep their lookups *)
Corollary remove_fully_other_keys f key k :
  bucket_path hash k <> bucket_path hash key ->
  (forall m cp, fst (run (find hash key) f) = Ok (Some m) -> content_path (m_sri m) = Some cp ->
                InCache (bucket_path hash k) <> InCache cp) ->
  abs_idx hash (snd (run (remove_fully hash key) f)) k = abs_idx hash f k.
Proof.
  intros Hb Hc. unfold abs_idx, bucket_bytes. rewrite remove_fully_frame; [reflexivity|congruence|exact Hc].
Qed.

Definition NoDupKeys (f : fs) : Prop := NoDup (map fst f).
(* the root holds directories only, every stored path hangs below a stored top-level entry *)
Definition RootShape (f : fs) : Prop :=
  lookup f (InCache []) = None /\
  (forall n nd, lookup f (InCache [n]) = Some nd -> nd = Dir) /\
  (forall x p nd, lookup f (InCache (x :: p)) = Some nd -> lookup f (InCache [x]) <> None).

Definition covered (ns : list name) (l : loc) : bool := existsb (fun n => under [n] l) ns.

Lemma remove_all_dirs (ns : list name) : forall f,
  NoDup ns -> (forall n, In n ns -> lookup f (InCache [n]) = Some Dir) ->
  run (remove_all (map (fun n => InCache [n]) ns)) f = (Ok tt, filter (fun ln => negb (covered ns (fst ln))) f).
Proof.
  induction ns as [|n ns IH]; intros f Hnd Hdir; cbn [map remove_all].
  - cbn [run]. f_equal. clear. induction f as [|x f IHf]; [reflexivity|]. cbn [filter covered existsb negb]. f_equal. exact IHf.
  - rewrite (run_rbind_ok _ _ _ tt (filter (fun ln => negb (under [n] (fst ln))) f)).
    2: { apply (run_step_ok _ _ ROk); [|exact I]. unfold exec. rewrite (Hdir n (or_introl eq_refl)). reflexivity. }
    inversion Hnd as [|? ? Hnotin Hnd']; subst. rewrite IH; [|exact Hnd'|].
    + f_equal. clear. induction f as [|[l x] f IHf]; cbn [filter fst]; [reflexivity|].
      cbn [covered existsb]. fold (covered ns l). destruct (under [n] l); cbn [negb orb filter fst]; [exact IHf|].
      destruct (covered ns l); cbn [negb]; [exact IHf|f_equal; exact IHf].
    + intros m Hm. rewrite (lookup_filter_key (fun l => negb (under [n] l))). cbn [under is_prefix].
      destruct (bytes_eqb n m) eqn:E; [apply bytes_eqb_eq in E; subst; contradiction|]. apply Hdir. right. exact Hm.
Qed.

(* the names a listing of the root answers: one per stored first-level entry *)
Definition root_names (f : fs) : list name := flat_map (fun ln => child_of [] (fst ln)) f.

Lemma root_names_in f n : In n (root_names f) <-> exists nd, In (InCache [n], nd) f.
Proof.
  unfold root_names. rewrite in_flat_map. split.
  - intros [[l nd] [Hin Hn]]. destruct l as [[|a [|b q]]|e]; cbn in Hn; try contradiction. destruct Hn as [<-|[]]. eauto.
  - intros [nd Hin]. exists (InCache [n], nd). split; [exact Hin|left; reflexivity].
Qed.

Lemma root_names_nodup f : NoDupKeys f -> NoDup (root_names f).
Proof.
  unfold NoDupKeys. induction f as [|[l nd] f IH]; cbn [root_names flat_map map fst]; [constructor|].
  intros H. inversion H as [|? ? Hn Hd]; subst. specialize (IH Hd).
  destruct l as [[|a [|b q]]|e]; try exact IH. constructor; [|exact IH].
  intros Hin. apply root_names_in in Hin as [x Hx]. apply Hn. apply in_map_iff. exists (InCache [a], x). auto.
Qed.

Theorem clear_scope f :
  NoDupKeys f -> RootShape f ->
  let f' := snd (run clear f) in
  fst (run clear f) = Ok tt /\
  (forall p, lookup f' (InCache p) = None) /\
  (forall n, lookup f' (Ext n) = lookup f (Ext n)).
Proof.
  intros Hnd [Hroot [Hdirs Hclosed]] f'.
  assert (run clear f = (Ok tt, filter (fun ln => negb (covered (root_names f) (fst ln))) f)) as Hrun.
  { unfold clear. cbn [run]. unfold exec. cbn [is_dir]. apply remove_all_dirs; [apply root_names_nodup; exact Hnd|].
    intros n Hn. apply root_names_in in Hn as [x Hx].
    destruct (lookup f (InCache [n])) as [y|] eqn:E; [|exfalso; exact (in_lookup _ _ _ Hx E)]. rewrite (Hdirs n y E). reflexivity. }
  subst f'. rewrite Hrun. cbn [fst snd]. split; [reflexivity|].
  split; intros x; rewrite (lookup_filter_key (fun l => negb (covered (root_names f) l))).
  - destruct (covered (root_names f) (InCache x)) eqn:Ec; [reflexivity|]. cbn [negb].
    destruct x as [|a q]; [exact Hroot|]. destruct (lookup f (InCache (a :: q))) as [nd|] eqn:El; [|reflexivity]. exfalso.
    destruct (lookup f (InCache [a])) as [y|] eqn:Ea; [|exact (Hclosed a q nd El Ea)].
    rewrite <- not_true_iff_false in Ec. apply Ec. apply existsb_exists. exists a.
    split; [apply root_names_in; exists y; apply lookup_in; exact Ea|]. cbn [under is_prefix]. rewrite bytes_eqb_refl. reflexivity.
  - assert (covered (root_names f) (Ext x) = false) as ->; [|reflexivity]. unfold covered. clear. induction (root_names f) as [|n ns IH]; [reflexivity|exact IH].
Qed.

(* the cleared cache satisfies the invariant every write theorem (C02) starts from: it is usable *)
Corollary clear_usable f :
  NoDupKeys f -> RootShape f -> CacheInv (snd (run clear f)).
Proof.
  intros Hnd Hr. destruct (clear_scope f Hnd Hr) as [_ [Hnone _]].
  split; [|split].
  - intros p n H. rewrite Hnone in H. discriminate.
  - intros p n H. rewrite Hnone in H. discriminate.
  - left. apply Hnone.
Qed.

End Rm.
