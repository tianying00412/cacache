(* ReadP.v — checked retrievals and extractions on an ARBITRARY tree (arbitrary = every damage pattern). *)
From CC Require Import Bytes Sri Record Fs Prog Api ProgP StepsP.

Section R.
Variable hash : algo -> bytes -> bytes.

(* "d carries the digest that address i asks for" *)
Definition digest_ok (i : integrity) (d : bytes) : Prop := sri_check hash i d = Some true.

Lemma exec_readfile_ok f l d : fst (exec (ReadFile l) f) = RBytes d -> resolve f l = Some (File d).
Proof. unfold exec. destruct (resolve f l) as [[d'| |t]|]; cbn; intros H; try discriminate. inversion H. reflexivity. Qed.

Lemma check_res_ok i d : check_res hash i d = Ok tt <-> digest_ok i d.
Proof.
  unfold check_res, digest_ok. destruct (sri_check hash i d) as [[|]|]; split; intros H; try reflexivity; try discriminate.
Qed.

Lemma read_file_eq f l : run (read_file l) f = (match resolve f l with Some (File d) => Ok d | _ => Err EIoErr end, f).
Proof. unfold read_file. cbn [run]. unfold exec. destruct (resolve f l) as [[d| |t]|]; reflexivity. Qed.

Definition checked {A} (i : integrity) (g : bytes -> A) (n : option node) : res A :=
  match n with
  | Some (File d) => match check_res hash i d with Ok _ => Ok (g d) | other => lift_err other end
  | _ => Err EIoErr
  end.

Lemma checked_ok {A} i (g : bytes -> A) n a : checked i g n = Ok a -> exists d, n = Some (File d) /\ digest_ok i d /\ a = g d.
Proof.
  unfold checked. destruct n as [[d| |t]|]; try discriminate. destruct (check_res hash i d) as [[]| | | |] eqn:Ec; try discriminate.
  intros H. inversion H. exists d. split; [reflexivity|]. split; [apply check_res_ok; exact Ec|reflexivity].
Qed.

Lemma verify_eq f i cp : run (verify hash i cp) f = (checked i lenN (resolve f cp), f).
Proof.
  unfold verify, rbind. rewrite run_bind, read_file_eq. unfold checked. destruct (resolve f cp) as [[d| |t]|]; try reflexivity.
  cbn [run]. destruct (check_res hash i d) as [[]| | | |]; reflexivity.
Qed.

Lemma read_hash_eq f i cp : content_path i = Some cp -> run (read_hash hash i) f = (checked i (fun d => d) (resolve f (InCache cp)), f).
Proof.
  intros E. unfold read_hash, with_cpath. rewrite E. unfold rbind. rewrite run_bind, read_file_eq. unfold checked.
  destruct (resolve f (InCache cp)) as [[d| |t]|]; try reflexivity. cbn [run]. destruct (check_res hash i d) as [[]| | | |]; reflexivity.
Qed.

Theorem read_hash_sound f i :
  snd (run (read_hash hash i) f) = f /\
  forall d, fst (run (read_hash hash i) f) = Ok d ->
    digest_ok i d /\ exists cp, content_path i = Some cp /\ resolve f (InCache cp) = Some (File d).
Proof.
  split; [exact (reads_fs _ f (read_hash_reads hash i))|]. intros d.
  destruct (content_path i) as [cp|] eqn:Ecp; [|unfold read_hash, with_cpath; rewrite Ecp; discriminate].
  rewrite (read_hash_eq f i cp Ecp). intros H. apply checked_ok in H as (x & Hr & Hd & ->). eauto.
Qed.

Lemma find_fs f key : snd (run (find hash key) f) = f.
Proof. exact (reads_fs _ f (find_reads hash key)). Qed.

Lemma by_key_run {A} f key (k : integrity -> prog (res A)) :
  run (by_key hash key k) f =
  match fst (run (find hash key) f) with
  | Ok (Some m) => run (k (m_sri m)) f
  | Ok None => (Err ENotFound, f)
  | r => (lift_err r, f)
  end.
Proof.
  unfold by_key, rbind. rewrite run_bind. pose proof (find_fs f key) as Hfs.
  destruct (run (find hash key) f) as [r f1]. cbn [snd fst] in *. subst f1.
  destruct r as [[m|]| | | |]; reflexivity.
Qed.

Theorem read_sound f key :
  snd (run (read hash key) f) = f /\
  forall d, fst (run (read hash key) f) = Ok d ->
    exists m, fst (run (find hash key) f) = Ok (Some m) /\ digest_ok (m_sri m) d.
Proof.
  split; [exact (reads_fs _ f (read_reads hash key))|]. unfold read.
  rewrite by_key_run. destruct (fst (run (find hash key) f)) as [[m|]| | | |]; try discriminate.
  intros d Hd. exists m. split; [reflexivity|]. exact (proj1 (proj2 (read_hash_sound f (m_sri m)) d Hd)).
Qed.

Fixpoint rchunks (r : rstate) (ns : list N) : list bytes * rstate :=
  match ns with
  | [] => ([], r)
  | n :: t => let '(c, r1) := rchunk r n in let '(cs, r2) := rchunks r1 t in (c :: cs, r2)
  end.

Lemma rchunks_seen r ns :
  r_seen (snd (rchunks r ns)) = r_seen r ++ List.concat (fst (rchunks r ns)) /\ r_sri (snd (rchunks r ns)) = r_sri r.
Proof.
  revert r. induction ns as [|n ns IH]; intros r; cbn [rchunks].
  - cbn. rewrite app_nil_r. auto.
  - destruct (rchunk r n) as [c r1] eqn:E1. destruct (rchunks r1 ns) as [cs r2] eqn:E2. cbn [fst snd List.concat].
    specialize (IH r1). rewrite E2 in IH. cbn [fst snd] in IH. destruct IH as [IH1 IH2].
    unfold rchunk in E1. inversion E1; subst. cbn [r_seen r_sri] in *. rewrite IH1, IH2, <- app_assoc. auto.
Qed.

(* a successful final check vouches for exactly the bytes that were delivered, however the buffer sizes
   were chosen (so stopping early can only make the check fail) *)
Theorem reader_sound f i ns r :
  fst (run (ropen_hash i) f) = Ok r ->
  forall a, rcheck hash (snd (rchunks r ns)) = Ok a -> digest_ok i (List.concat (fst (rchunks r ns))).
Proof.
  intros Hopen a Hc.
  assert (r_sri r = i /\ r_seen r = []) as [Hi Hs].
  { unfold ropen_hash, with_cpath in Hopen. destruct (content_path i); [|discriminate].
    unfold rbind in Hopen. rewrite run_bind in Hopen.
    destruct (run (read_file (InCache p)) f) as [x f1]. destruct x; cbn in Hopen; try discriminate.
    inversion Hopen; subst. auto. }
  destruct (rchunks_seen r ns) as [H1 H2]. unfold rcheck in Hc. rewrite H1, H2, Hs, Hi in Hc. cbn [app] in Hc.
  destruct (check_res hash i (List.concat (fst (rchunks r ns)))) as [[]| | | |] eqn:E; cbn in Hc; try discriminate.
  apply check_res_ok. exact E.
Qed.

Lemma xstep_run f x cp dst :
  (fst (run (xstep x cp dst) f) = Err EIoErr /\ snd (run (xstep x cp dst) f) = f) \/
  (exists n, fst (run (xstep x cp dst) f) = Ok n /\
     match x with
     | XCopy => exists d, resolve f cp = Some (File d) /\ n = lenN d /\
                          snd (run (xstep x cp dst) f) = update f dst (File d)
     | XHardLink => exists nd, lookup f cp = Some nd /\ nd <> Dir /\ lookup f dst = None /\
                               snd (run (xstep x cp dst) f) = update f dst nd
     | XReflink => False
     end).
Proof.
  unfold xstep. cbn [run]. destruct x; unfold exec.
  - destruct (resolve f cp) as [[d| |t]|] eqn:Er; try (left; split; reflexivity).
    destruct (lookup f dst) as [[d'| |t']|]; try (left; split; reflexivity);
    destruct (parent_ok f dst); try (left; split; reflexivity);
    right; exists (lenN d); (split; [reflexivity|]); exists d; auto.
  - destruct (lookup f cp) as [[d| |t]|] eqn:El; try (left; split; reflexivity);
    destruct (lookup f dst) as [nd'|] eqn:Ed; try (left; split; reflexivity);
    destruct (parent_ok f dst); try (left; split; reflexivity).
    + right. exists 0%N. split; [reflexivity|]. exists (File d). repeat split; auto; discriminate.
    + right. exists 0%N. split; [reflexivity|]. exists (Symlink t). repeat split; auto; discriminate.
  - destruct (resolve f cp) as [[d| |t]|]; left; split; reflexivity.
Qed.

(* a checked extraction: the verification read, then the step, whose count is dropped for the verified one *)
Lemma extract_checked_eq f x i dst cp :
  content_path i = Some cp ->
  run (extract_hash hash x true i dst) f =
  match checked i lenN (resolve f (InCache cp)) with
  | Ok n => (match fst (run (xstep x (InCache cp) dst) f) with Ok _ => Ok n | other => lift_err other end,
             snd (run (xstep x (InCache cp) dst) f))
  | other => (lift_err other, f)
  end.
Proof.
  intros E. unfold extract_hash, with_cpath. rewrite E. unfold rbind. rewrite run_bind, verify_eq.
  destruct (checked i lenN _) as [n| | | |]; try reflexivity.
  rewrite run_bind. destruct (run (xstep x (InCache cp) dst) f) as [[m| | | |] f']; reflexivity.
Qed.

Lemma extract_no_path f x checked i dst a : content_path i = None -> fst (run (extract_hash hash x checked i dst) f) <> Ok a.
Proof. intros E. unfold extract_hash, with_cpath. rewrite E. discriminate. Qed.

Theorem extract_hash_checked f x i dst :
  forall n, fst (run (extract_hash hash x true i dst) f) = Ok n ->
    exists cp d, content_path i = Some cp /\ resolve f (InCache cp) = Some (File d) /\ digest_ok i d /\ n = lenN d /\
      match x with
      | XCopy => snd (run (extract_hash hash x true i dst) f) = update f dst (File d)
      | XHardLink => exists nd, lookup f (InCache cp) = Some nd /\ lookup f dst = None /\
                                snd (run (extract_hash hash x true i dst) f) = update f dst nd
      | XReflink => False
      end.
Proof.
  intros n. destruct (content_path i) as [cp|] eqn:Ecp; [|intros H; destruct (extract_no_path f x true i dst n Ecp H)].
  rewrite (extract_checked_eq f x i dst cp Ecp). destruct (checked i lenN _) as [n0| | | |] eqn:Ev; try discriminate.
  apply checked_ok in Ev as (d & Hr & Hd & ->). cbn [fst snd].
  destruct (xstep_run f x (InCache cp) dst) as [[He _]|[m [Hm Hx]]]; rewrite ?He, ?Hm; [discriminate|].
  intros H. inversion H; subst n. exists cp, d. repeat split; auto. destruct x.
  - destruct Hx as [d' [Hr' [_ Hf]]]. assert (d' = d) by congruence. subst d'. exact Hf.
  - destruct Hx as [nd [Hl [_ [Hn Hf]]]]. exists nd. auto.
  - exact Hx.
Qed.

(* a failed verification leaves the whole tree — in particular the destination — exactly as it was *)
Theorem extract_hash_checked_fail f x i dst e :
  fst (run (extract_hash hash x true i dst) f) = Err e -> e = EIntegrity ->
  snd (run (extract_hash hash x true i dst) f) = f.
Proof.
  destruct (content_path i) as [cp|] eqn:Ecp; [|unfold extract_hash, with_cpath; rewrite Ecp; discriminate].
  rewrite (extract_checked_eq f x i dst cp Ecp). destruct (checked i lenN _) as [n0| | | |]; try reflexivity. cbn [fst snd].
  destruct (xstep_run f x (InCache cp) dst) as [[He _]|[m [Hm _]]]; rewrite ?He, ?Hm; [|discriminate].
  intros H1 H2. inversion H1. subst. discriminate.
Qed.

(* unchecked extraction: exactly the stored bytes *)
Theorem extract_hash_unchecked f x i dst n :
  fst (run (extract_hash hash x false i dst) f) = Ok n ->
  exists cp, content_path i = Some cp /\
    match x with
    | XCopy => exists d, resolve f (InCache cp) = Some (File d) /\ n = lenN d /\
                         snd (run (extract_hash hash x false i dst) f) = update f dst (File d)
    | XHardLink => exists nd, lookup f (InCache cp) = Some nd /\ lookup f dst = None /\
                              snd (run (extract_hash hash x false i dst) f) = update f dst nd
    | XReflink => False
    end.
Proof.
  destruct (content_path i) as [cp|] eqn:Ecp; [|intros H; destruct (extract_no_path f x false i dst n Ecp H)].
  unfold extract_hash, with_cpath. rewrite Ecp.
  destruct (xstep_run f x (InCache cp) dst) as [[He Hs]|[m [Hm Hx]]]; rewrite ?He, ?Hm; [discriminate|].
  intros H. inversion H; subst m. exists cp. split; [reflexivity|]. destruct x.
  - destruct Hx as [d [Hr [Hn Hf]]]. exists d. auto.
  - destruct Hx as [nd [Hl [_ [Hn Hf]]]]. exists nd. auto.
  - exact Hx.
Qed.

(* missing key: not-found and nothing touched; missing content: I/O error and nothing touched *)
Theorem extract_missing_key f x checked key dst :
  fst (run (find hash key) f) = Ok None ->
  run (extract hash x checked key dst) f = (Err ENotFound, f).
Proof.
  intros H. unfold extract. rewrite by_key_run, H. reflexivity.
Qed.

Theorem extract_missing_content f x checked i dst cp :
  content_path i = Some cp -> resolve f (InCache cp) = None -> lookup f (InCache cp) = None ->
  run (extract_hash hash x checked i dst) f = (Err EIoErr, f).
Proof.
  intros Hcp Hr Hl. unfold extract_hash, with_cpath. rewrite Hcp.
  assert (run (xstep x (InCache cp) dst) f = (Err EIoErr, f)) as Hx.
  { unfold xstep. cbn [run]. destruct x; unfold exec; rewrite ?Hr, ?Hl; reflexivity. }
  destruct checked; [|exact Hx]. unfold rbind. rewrite run_bind, verify_eq, Hr. reflexivity.
Qed.

End R.
