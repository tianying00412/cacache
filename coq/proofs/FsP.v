(* FsP.v — finite-map facts about the abstract filesystem, [mkdirs], and the two summaries of [exec]: what one step can
   do to a location, in its final and intermediate states ([exec_effect]), and which change it makes to the tree, with
   what it has tested before ([exec_change]). *)
From CC Require Import Bytes Fs Crash BytesP.
From Coq Require Import Lia.

Lemma path_eqb_eq a b : path_eqb a b = true <-> a = b.
Proof. apply list_eqb_eq. apply bytes_eqb_eq. Qed.

Lemma loc_eqb_eq a b : loc_eqb a b = true <-> a = b.
Proof.
  destruct a as [p|n], b as [q|m]; simpl; split; intros H; try discriminate.
  - apply path_eqb_eq in H. congruence.
  - inversion H; subst. apply path_eqb_eq. reflexivity.
  - apply bytes_eqb_eq in H. congruence.
  - inversion H; subst. apply bytes_eqb_refl.
Qed.

Lemma loc_eqb_refl a : loc_eqb a a = true.
Proof. apply loc_eqb_eq. reflexivity. Qed.

Lemma loc_eqb_neq a b : loc_eqb a b = false <-> a <> b.
Proof.
  split.
  - intros H E. subst. rewrite loc_eqb_refl in H. discriminate.
  - intros H. destruct (loc_eqb a b) eqn:E; [|reflexivity]. apply loc_eqb_eq in E. contradiction.
Qed.

Lemma loc_eq_dec (a b : loc) : {a = b} + {a <> b}.
Proof. destruct (loc_eqb a b) eqn:E; [left; apply loc_eqb_eq; exact E|right; apply loc_eqb_neq; exact E]. Qed.

Lemma lookup_remove_eq f l : lookup (remove f l) l = None.
Proof.
  induction f as [|[l' n] f IH]; simpl; [reflexivity|].
  destruct (loc_eqb l' l) eqn:E; [exact IH|]. simpl. rewrite E. exact IH.
Qed.

Lemma lookup_remove_neq f l l' : l <> l' -> lookup (remove f l) l' = lookup f l'.
Proof.
  intros Hne. induction f as [|[l0 n] f IH]; simpl; [reflexivity|].
  destruct (loc_eqb l0 l) eqn:E.
  - apply loc_eqb_eq in E. subst l0.
    destruct (loc_eqb l l') eqn:E2; [apply loc_eqb_eq in E2; contradiction|exact IH].
  - simpl. destruct (loc_eqb l0 l'); [reflexivity|exact IH].
Qed.

Lemma lookup_update_eq f l n : lookup (update f l n) l = Some n.
Proof. unfold update. simpl. rewrite loc_eqb_refl. reflexivity. Qed.

Lemma lookup_update_neq f l n l' : l <> l' -> lookup (update f l n) l' = lookup f l'.
Proof.
  intros Hne. unfold update. simpl.
  destruct (loc_eqb l l') eqn:E; [apply loc_eqb_eq in E; contradiction|].
  apply lookup_remove_neq. exact Hne.
Qed.

Lemma lookup_update f l n l' :
  lookup (update f l n) l' = if loc_eqb l l' then Some n else lookup f l'.
Proof.
  destruct (loc_eqb l l') eqn:E.
  - apply loc_eqb_eq in E. subst. apply lookup_update_eq.
  - apply lookup_update_neq. apply loc_eqb_neq. exact E.
Qed.

Lemma lookup_remove f l l' : lookup (remove f l) l' = if loc_eqb l l' then None else lookup f l'.
Proof.
  destruct (loc_eqb l l') eqn:E.
  - apply loc_eqb_eq in E. subst. apply lookup_remove_eq.
  - apply lookup_remove_neq. apply loc_eqb_neq. exact E.
Qed.

Lemma lookup_cons l' n f l : lookup ((l', n) :: f) l = if loc_eqb l' l then Some n else lookup f l.
Proof. reflexivity. Qed.

Lemma lookup_in f l n : lookup f l = Some n -> In (l, n) f.
Proof.
  induction f as [|[l' n'] f IH]; [discriminate|]. rewrite lookup_cons.
  destruct (loc_eqb l' l) eqn:E; [apply loc_eqb_eq in E; subst; intros H; inversion H; left; reflexivity|right; auto].
Qed.

Lemma in_lookup f l n : In (l, n) f -> lookup f l <> None.
Proof.
  induction f as [|[l' n'] f IH]; [intros []|]. rewrite lookup_cons.
  intros [H|H]; [inversion H; subst; rewrite loc_eqb_refl; discriminate|].
  destruct (loc_eqb l' l); [discriminate|auto].
Qed.

Lemma lookup_filter_key (g : loc -> bool) f l :
  lookup (filter (fun ln => g (fst ln)) f) l = if g l then lookup f l else None.
Proof.
  induction f as [|[l' n] f IH]; cbn [filter fst]; [destruct (g l); reflexivity|].
  destruct (g l') eqn:Eg; rewrite ?lookup_cons, IH; destruct (loc_eqb l' l) eqn:E; try reflexivity;
    apply loc_eqb_eq in E; subst; rewrite Eg; reflexivity.
Qed.

Lemma update_update f l n n' : update (update f l n) l n' = update f l n'.
Proof.
  unfold update. f_equal. cbn [remove]. rewrite loc_eqb_refl.
  induction f as [|[l0 n0] f IH]; cbn [remove]; [reflexivity|].
  destruct (loc_eqb l0 l) eqn:E; [exact IH|]. cbn [remove]. rewrite E, IH. reflexivity.
Qed.

Lemma is_dir_lookup f x p : is_dir f (x :: p) = true -> lookup f (InCache (x :: p)) = Some Dir.
Proof. unfold is_dir. destruct (lookup f (InCache (x :: p))) as [[d| |t]|]; try discriminate. reflexivity. Qed.

Lemma is_dir_of_lookup f p : lookup f (InCache p) = Some Dir -> is_dir f p = true.
Proof. intros H. unfold is_dir. destruct p; [reflexivity|]. rewrite H. reflexivity. Qed.

Definition dir_or_absent (f : fs) (p : path) : Prop :=
  lookup f (InCache p) = None \/ lookup f (InCache p) = Some Dir.

Lemma mkdirs_effect f ps g l :
  g = snd (mkdirs f ps) \/ In g (mkdirs_states f ps) ->
  lookup g l = lookup f l \/ lookup f l = None /\ lookup g l = Some Dir /\ In l (map InCache ps).
Proof.
  revert f. induction ps as [|p ps IH]; intros f; cbn [mkdirs mkdirs_states map In].
  - intros [->|[]]. left. reflexivity.
  - destruct (lookup f (InCache p)) as [[d| |t]|] eqn:E; cbn [snd In]; try (intros [->|[]]; left; reflexivity).
    + intros H. destruct (IH f H) as [H1|(H1 & H2 & H3)]; auto.
    + (* [p] is created: [g] is that tree, or comes from it by the rest of the list *)
      intros H.
      assert (lookup g l = lookup (update f (InCache p) Dir) l \/
              lookup (update f (InCache p) Dir) l = None /\ lookup g l = Some Dir /\ In l (map InCache ps)) as Hg
        by (destruct H as [H|[<-|H]]; [apply IH; left; exact H|left; reflexivity|apply IH; right; exact H]).
      rewrite lookup_update in Hg. destruct (loc_eqb (InCache p) l) eqn:El.
      * apply loc_eqb_eq in El. subst l. right. destruct Hg as [Hg|(Hg & _)]; [auto|discriminate Hg].
      * destruct Hg as [Hg|(H1 & H2 & H3)]; auto.
Qed.

Lemma mkdirs_keeps f ps l n : lookup f l = Some n -> lookup (snd (mkdirs f ps)) l = Some n.
Proof. intros H. destruct (mkdirs_effect f ps _ l (or_introl eq_refl)) as [E|(E & _)]; congruence. Qed.

Lemma mkdirs_spec f ps :
  (forall p, In p ps -> dir_or_absent f p) ->
  fst (mkdirs f ps) = ROk /\
  forall l, lookup (snd (mkdirs f ps)) l = if existsb (loc_eqb l) (map InCache ps) then Some Dir else lookup f l.
Proof.
  revert f. induction ps as [|p ps IH]; intros f Hall; cbn [mkdirs map existsb]; [auto|].
  assert (forall l, loc_eqb l (InCache p) = loc_eqb (InCache p) l) as Hsym.
  { intros l. destruct (loc_eqb (InCache p) l) eqn:E; [apply loc_eqb_eq in E; subst; apply loc_eqb_refl|].
    apply loc_eqb_neq. apply loc_eqb_neq in E. congruence. }
  destruct (Hall p (or_introl eq_refl)) as [Hn|Hd]; [rewrite Hn|rewrite Hd].
  - destruct (IH (update f (InCache p) Dir)) as [H1 H2].
    { intros q Hq. unfold dir_or_absent. rewrite lookup_update.
      destruct (loc_eqb (InCache p) (InCache q)); [right; reflexivity|apply Hall; right; exact Hq]. }
    split; [exact H1|]. intros l. rewrite H2, lookup_update, Hsym.
    destruct (loc_eqb (InCache p) l), (existsb (loc_eqb l) (map InCache ps)); reflexivity.
  - destruct (IH f) as [H1 H2]; [intros q Hq; apply Hall; right; exact Hq|].
    split; [exact H1|]. intros l. rewrite H2, Hsym.
    destruct (loc_eqb (InCache p) l) eqn:E; [|reflexivity]. apply loc_eqb_eq in E. subst l. rewrite Hd.
    destruct (existsb _ _); reflexivity.
Qed.

Lemma exec_mkdirall f p : exec (MkdirAll p) f = mkdirs f (prefixes p).
Proof. reflexivity. Qed.

Lemma exec_mkdirall_ok f p :
  (forall q, In q (prefixes p) -> dir_or_absent f q) ->
  exists f1, exec (MkdirAll p) f = (ROk, f1) /\
    forall l, lookup f1 l = if existsb (loc_eqb l) (map InCache (prefixes p)) then Some Dir else lookup f l.
Proof.
  intros H. destruct (mkdirs_spec f (prefixes p) H) as [H1 H2]. exists (snd (mkdirs f (prefixes p))).
  split; [|exact H2]. rewrite exec_mkdirall, <- H1. apply surjective_pairing.
Qed.

Lemma in_prefixes_b p q : existsb (loc_eqb (InCache q)) (map InCache (prefixes p)) = true <-> In q (prefixes p).
Proof.
  rewrite existsb_exists. split.
  - intros (l & Hl & E). apply loc_eqb_eq in E. subst l. apply in_map_iff in Hl as (q' & E & Hq). congruence.
  - intros H. exists (InCache q). split; [apply in_map; exact H|apply loc_eqb_refl].
Qed.

Lemma prefixes_from_length pre p q : In q (prefixes_from pre p) ->
  (List.length pre < List.length q <= List.length pre + List.length p)%nat /\ exists r, q = pre ++ r /\ r <> [].
Proof.
  revert pre. induction p as [|x p IH]; intros pre H; simpl in H; [destruct H|].
  destruct H as [<-|H].
  - rewrite app_length. simpl. split; [lia|]. exists [x]. split; [reflexivity|discriminate].
  - apply IH in H as [Hl [r [-> Hr]]]. rewrite app_length in Hl. simpl in Hl.
    split; [simpl; lia|]. exists (x :: r). rewrite <- app_assoc. split; [reflexivity|discriminate].
Qed.

Lemma prefixes_length p q : In q (prefixes p) -> (0 < List.length q <= List.length p)%nat.
Proof. intros H. apply prefixes_from_length in H as [H _]. simpl in H. exact H. Qed.

Lemma prefixes_from_last pre p : p <> [] -> In (pre ++ p) (prefixes_from pre p).
Proof.
  revert pre. induction p as [|x p IH]; intros pre Hne; [congruence|].
  simpl. destruct p as [|y p].
  - left. reflexivity.
  - right. specialize (IH (pre ++ [x]) ltac:(discriminate)). rewrite <- app_assoc in IH. exact IH.
Qed.

Lemma prefixes_last p : p <> [] -> In p (prefixes p).
Proof. intros H. apply (prefixes_from_last [] p H). Qed.

Lemma prefixes_from_head pre p q : In q (prefixes_from pre p) -> exists r, q = pre ++ r /\ is_prefix r p = true /\ r <> [].
Proof.
  revert pre. induction p as [|x p IH]; intros pre H; simpl in H; [destruct H|].
  destruct H as [<-|H].
  - exists [x]. simpl. rewrite bytes_eqb_refl. split; [reflexivity|]. split; [reflexivity|discriminate].
  - apply IH in H as [r [-> [Hp Hr]]]. exists (x :: r). rewrite <- app_assoc. simpl.
    rewrite bytes_eqb_refl. split; [reflexivity|]. split; [exact Hp|discriminate].
Qed.

Lemma exec_create_absent f l :
  lookup f l = None -> parent_ok f l = true -> exec (CreateIfMissing l) f = (ROk, update f l (File [])).
Proof. intros H1 H2. cbn [exec]. rewrite H1, H2. reflexivity. Qed.

Lemma exec_create_file f l d :
  lookup f l = Some (File d) -> exec (CreateIfMissing l) f = (ROk, f).
Proof. intros H1. cbn [exec]. rewrite H1. reflexivity. Qed.

Lemma exec_append f l d s :
  lookup f l = Some (File d) -> exec (Append l s) f = (ROk, update f l (File (d ++ s))).
Proof. intros H1. cbn [exec]. rewrite H1. reflexivity. Qed.

Lemma exec_readfile_file f l d : lookup f l = Some (File d) -> exec (ReadFile l) f = (RBytes d, f).
Proof. intros H. cbn [exec]. unfold resolve. rewrite H. reflexivity. Qed.

Lemma exec_readfile_absent f l : lookup f l = None -> exec (ReadFile l) f = (RErr ENOENT, f).
Proof. intros H. cbn [exec]. unfold resolve. rewrite H. reflexivity. Qed.

(* the nodes a step can leave at a location it touches *)
Definition may_put (c : sys) (f : fs) (n : node) : Prop :=
  match c with
  | MkdirAll _ => n = Dir
  | CreateTmp | Fallocate _ _ | MmapStore _ _ _ | Truncate _ _ | WriteAppend _ _ | CreateIfMissing _ | Append _ _
  | CopyFile _ _ => exists d, n = File d
  | Rename s _ | Link s _ => lookup f s = Some n
  | SymlinkTo t _ => n = Symlink t
  | _ => False
  end.

Definition effect (c : sys) (f g : fs) (l : loc) : Prop :=
  lookup g l = lookup f l \/ may_touch c l /\ (lookup g l = None \/ exists n, lookup g l = Some n /\ may_put c f n).

Lemma exec_effect c f g l : g = snd (exec c f) \/ In g (mid_states c f) -> effect c f g l.
Proof.
  assert (Hup : forall f' l0 n, may_touch c l0 -> may_put c f n -> effect c f f' l -> effect c f (update f' l0 n) l).
  { intros f' l0 n Ht Hp He. unfold effect. rewrite lookup_update. destruct (loc_eqb l0 l) eqn:E; [|exact He].
    apply loc_eqb_eq in E. subst. right. eauto. }
  assert (Hrm : forall f' l0, may_touch c l0 -> effect c f f' l -> effect c f (remove f' l0) l).
  { intros f' l0 Ht He. unfold effect. rewrite lookup_remove. destruct (loc_eqb l0 l) eqn:E; [|exact He].
    apply loc_eqb_eq in E. subst. right. auto. }
  assert (Hsame : effect c f f l) by (left; reflexivity).
  intros H. unfold exec, mid_states in H. destruct c; cbn [may_touch may_put] in Hup, Hrm.
  1: { destruct (mkdirs_effect f (prefixes p) g l H) as [E|(E1 & E2 & E3)]; [left; exact E|].
       right. split; [exact E3|]. right. exists Dir. split; [exact E2|reflexivity]. }
  (* every other step: one branch of [exec] per shape of the tree; the state is [f], an [update] or a [remove] of it *)
  all: repeat match type of H with context [match ?x with _ => _ end] => destruct x eqn:? end.
  all: cbn [snd In] in H; try (destruct H as [->|H]; [|try contradiction]); eauto 6.
  all: try (apply in_map_iff in H as [x [<- _]]; eauto).
  unfold effect. rewrite (lookup_filter_key (fun l => negb (under p l))). cbn [may_touch].
  destruct (under p l); [right; auto|left; reflexivity].
Qed.

Global Arguments lookup : simpl never.
Global Arguments update : simpl never.
Global Arguments remove : simpl never.
Global Arguments exec : simpl never.

Lemma tmp_names_lookup f n nd : lookup f (InCache [bs "tmp"; n]) = Some nd -> In n (tmp_names f).
Proof.
  induction f as [|[l x] f IH]; unfold lookup; cbn [tmp_names]; [discriminate|]. fold (lookup f).
  destruct (loc_eqb l (InCache [bs "tmp"; n])) eqn:E.
  - apply loc_eqb_eq in E. subst l. intros _. rewrite bytes_eqb_refl. left. reflexivity.
  - intros H. specialize (IH H).
    destruct l as [[|t [|m [|? ?]]]|?]; try exact IH. destruct (bytes_eqb t (bs "tmp")); [right|]; exact IH.
Qed.

Lemma in_concat_length (n : bytes) (ns : list bytes) : In n ns -> (List.length n <= List.length (List.concat ns))%nat.
Proof.
  induction ns as [|m ns IH]; [intros []|]. intros [->|H]; cbn [List.concat]; rewrite app_length; [lia|].
  specialize (IH H). lia.
Qed.

Lemma fresh_absent f : lookup f (InCache (tmp_dir ++ [fresh f])) = None.
Proof.
  destruct (lookup f (InCache (tmp_dir ++ [fresh f]))) as [nd|] eqn:E; [|reflexivity]. exfalso.
  apply tmp_names_lookup in E. apply in_concat_length in E. unfold fresh in E. cbn [List.length] in E. lia.
Qed.

Definition creates (c : sys) (l : loc) : Prop :=
  match c with
  | CreateTmp => exists n, l = InCache (tmp_dir ++ [n])
  | CreateIfMissing d | Link _ d | SymlinkTo _ d | CopyFile _ d => l = d
  | _ => False
  end.

(* what one step does to the tree: nothing, or one of six changes, each with what [exec] has checked before making it *)
Inductive change (c : sys) (f : fs) : fs -> Prop :=
| ch_none : change c f f
| ch_mkdirs p : c = MkdirAll p -> change c f (snd (mkdirs f (prefixes p)))
| ch_rewrite l d n : lookup f l = Some (File d) -> change c f (update f l n)
| ch_create l n : creates c l -> lookup f l <> Some Dir -> parent_ok f l = true -> change c f (update f l n)
| ch_unlink l n : lookup f l = Some n -> n <> Dir -> change c f (remove f l)
| ch_rename s d n : c = Rename s d -> lookup f s = Some n -> lookup f d <> Some Dir -> parent_ok f d = true ->
    change c f (update (remove f s) d n)
| ch_rmtree p : c = RemoveDirAll p -> change c f (filter (fun ln => negb (under p (fst ln))) f).

Lemma exec_change c f : change c f (snd (exec c f)).
Proof.
  destruct c; unfold exec.
  all: repeat match goal with |- context [match ?x with _ => _ end] => destruct x eqn:? end; cbn [snd].
  (* every branch is one of the forms; its side conditions are the tests that lead to it *)
  all: try (econstructor; first [reflexivity|eassumption|congruence]).
  all: apply ch_create; [cbn; eauto|try congruence|assumption].
  rewrite (fresh_absent f). discriminate.
Qed.
