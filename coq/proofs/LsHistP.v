(* LsHistP.v — C10 over histories: the shape invariants the whole-cache listing theorem needs (no duplicate locations,
   nothing below the bucket level, every record in the bucket of its key) hold in every state any history of writes
   and removals reaches, so after any history the listing yields exactly the keys the map holds — each with the entry a
   lookup finds. *)
From CC Require Import Bytes Sri Record Fs Prog Api FsP StepsP RecordP IndexP WriteP CommitP RemoveP LsWholeP
  MetaP HistP ConfineP.
From Coq Require Import Lia.
Local Open Scope N_scope.

Lemma nodup_filter (p : loc * node -> bool) f : NoDupKeys f -> NoDupKeys (filter p f).
Proof.
  unfold NoDupKeys. induction f as [|x f IH]; cbn [filter map]; intros H; [constructor|].
  inversion H as [|? ? Hn Hr]; subst. destruct (p x); [|exact (IH Hr)].
  cbn [map]. constructor; [|exact (IH Hr)]. intros X. apply Hn. apply in_map_iff in X as [y [E Hy]]. apply filter_In in Hy as [Hy _].
  rewrite <- E. apply in_map. exact Hy.
Qed.
Lemma remove_filter f l : remove f l = filter (fun ln => negb (loc_eqb (fst ln) l)) f.
Proof.
  induction f as [|[l' n] f IH]; [reflexivity|]. cbn [filter fst]. rewrite <- IH.
  change (remove ((l', n) :: f) l) with (if loc_eqb l' l then remove f l else (l', n) :: remove f l). destruct (loc_eqb l' l); reflexivity.
Qed.
Lemma nodup_remove f l : NoDupKeys f -> NoDupKeys (remove f l).
Proof. rewrite remove_filter. apply nodup_filter. Qed.
Lemma nodup_update f l n : NoDupKeys f -> NoDupKeys (update f l n).
Proof.
  intros H. unfold update, NoDupKeys. cbn [map fst]. constructor; [|apply nodup_remove; exact H].
  rewrite remove_filter. intros X. apply in_map_iff in X as ([l' n'] & E & Hy). apply filter_In in Hy as [_ Hy]. cbn [fst] in *. subst l'.
  rewrite loc_eqb_refl in Hy. discriminate.
Qed.
Lemma nodup_mkdirs f ps : NoDupKeys f -> NoDupKeys (snd (mkdirs f ps)).
Proof.
  revert f. induction ps as [|p ps IH]; intros f H; cbn [mkdirs snd]; [exact H|].
  destruct (lookup f (InCache p)) as [[d| |t]|]; cbn [snd]; try exact H; [apply IH; exact H|apply IH, nodup_update; exact H].
Qed.

Lemma nodup_exec c f : NoDupKeys f -> NoDupKeys (snd (exec c f)).
Proof. intros H. destruct (exec_change c f); auto using nodup_mkdirs, nodup_update, nodup_remove, nodup_filter. Qed.

Theorem nodup_run {A} (p : prog A) f : NoDupKeys f -> NoDupKeys (snd (run p f)).
Proof.
  revert f. induction p as [a|c k IH]; intros f H; cbn [run snd]; [exact H|].
  pose proof (nodup_exec c f H) as H1. destruct (exec c f) as [r f1]. apply IH. exact H1.
Qed.

Section LH.
Variable hash : algo -> bytes -> bytes.
Hypothesis HL : HashLen hash.

Definition LIdx (f : fs) : Prop := IndexInv f /\ NoDeep f /\ BucketPlacement hash f.
Definition LInv (f : fs) : Prop := NoDupKeys f /\ LIdx f.

Lemma lidx_shrink f f' :
  LIdx f -> (forall l, is_index l -> lookup f' l = lookup f l \/ lookup f' l = None) -> LIdx f'.
Proof.
  intros (Hi & Hd & Hb) Hsh.
  assert (forall p n, lookup f' (InCache (index_dir :: p)) = Some n -> lookup f (InCache (index_dir :: p)) = Some n) as H.
  { intros p n Hl. destruct (Hsh (InCache (index_dir :: p))) as [E|E]; [eexists; reflexivity| |]; congruence. }
  split; [|split].
  - intros p n Hl. exact (Hi p n (H _ _ Hl)).
  - intros p n Hl. exact (Hd p n (H _ _ Hl)).
  - intros a b c d Hl. exact (Hb a b c d (H _ _ Hl)).
Qed.

Lemma linv_empty : LInv [].
Proof.
  split; [constructor|]. split; [intros p n H; discriminate|]. split; [intros p n H; discriminate|intros a b c d H; discriminate].
Qed.

Lemma lidx_insert f key o now :
  LIdx f -> wf_rec hash (smeta_of key o now) ->
  LIdx (snd (run (insert hash key o now) f)) /\ is_dir (snd (run (insert hash key o now) f)) [index_dir] = true.
Proof.
  intros (Hi & Hd & Hb) Hwf. destruct (insert_result hash f key o now Hi Hwf) as (f1 & f' & Hmk & Htop & -> & Hi' & Hl). cbn [snd].
  destruct (bucket_path_shape hash key) as (x & y & z & Ek). rewrite Ek in Hl.
  split; [|unfold is_dir; rewrite Hl; exact Htop]. split; [exact Hi'|]. split.
  - (* nothing below the bucket level: the bucket itself, an old node, or a new directory *)
    intros p n Hp. rewrite Hl in Hp. destruct (loc_eqb _ _) eqn:E; [apply loc_eqb_eq in E; injection E as <-; cbn; lia|].
    destruct (Hmk (InCache (index_dir :: p))) as [H|(_ & _ & q & [= <-] & Hq)]; [rewrite H in Hp; exact (Hd p n Hp)|lia].
  - (* every record in the bucket of its key: the old ones, and the new one *)
    intros a b c d Hp e He. rewrite Hl in Hp. destruct (loc_eqb _ _) eqn:E.
    + apply loc_eqb_eq in E. injection E as <- <- <-. injection Hp as <-.
      rewrite (proj1 (entries_app_record hash _ _ (bucket_bytes_clean hash f key Hi) Hwf)) in He.
      apply in_app_or in He as [He|[<-|[]]]; [|exact Ek]. unfold bucket_bytes in He. rewrite Ek in He.
      destruct (lookup f (InCache [index_dir; x; y; z])) as [[d1| |t]|] eqn:El; try destruct He. exact (Hb x y z d1 El e He).
    + rewrite (more_dirs_bucket _ (ex_intro _ a (ex_intro _ b (ex_intro _ c eq_refl))) f f1 Hmk) in Hp. exact (Hb a b c d Hp e He).
Qed.

(* a streamed write leaves index-v5 alone up to its index insert, if it has one *)
Lemma stream_index f fl key o (cs : list bytes) now :
  CacheInv f -> o_sri o = None -> size_ok o (lenN (List.concat cs)) = true ->
  exists f1, (forall l, is_index l -> lookup f1 l = lookup f l) /\
    snd (run (stream_write hash fl key o cs now) f) =
    match key with
    | Some k => snd (run (insert hash k (commit_opts o (sri_of hash (algo_of o) (List.concat cs)) (lenN (List.concat cs))) now) f1)
    | None => f1
    end.
Proof.
  intros Hinv Hns Hsz.
  destruct (stream_write_decomp f fl key o cs Hinv) as (w0 & f1 & w & f2 & Hr1 & Hr2 & Hw & Hi2 & Hk & Ho & Ha & Hd & _ & Hfr).
  rewrite (stream_write_run hash _ _ _ _ _ now _ _ _ _ Hr1 Hr2).
  destruct (close_writer_inv hash HL f2 w Hw Hi2) as (f3 & Hcl & _ & _ & _ & Hfr3 & _). exists f3. split.
  - intros l Hl. rewrite Hfr3, Hfr; [reflexivity|intros X; exact (index_not_tmp l Hl X)|intros X; exact (index_not_content l Hl X)|].
    intros ->. exact (index_not_tmp _ Hl (or_intror (proj1 Hw))).
  - assert (declared_ok (w_opts w) (sri_of hash (w_algo w) (w_data w)) = Some (sri_of hash (w_algo w) (w_data w))) as Hdo
      by (unfold declared_ok; rewrite Ho, Hns; reflexivity).
    assert (size_ok (w_opts w) (lenN (w_data w)) = true) as Hs2 by (rewrite Ho, Hd; exact Hsz).
    destruct key as [k|].
    + rewrite (commit_keyed_run hash HL f2 w now Hw Hi2 _ k Hdo Hs2 Hk), Hcl, Ho, Ha, Hd. reflexivity.
    + rewrite (commit_by_hash_ok hash HL f2 w now Hw Hi2 _ Hdo Hs2 Hk), Hcl. reflexivity.
Qed.

Lemma lidx_stream f fl key o (cs : list bytes) now :
  CacheInv f -> LIdx f -> o_sri o = None -> size_ok o (lenN (List.concat cs)) = true ->
  wf_rec hash (smeta_of key (commit_opts o (sri_of hash (algo_of o) (List.concat cs)) (lenN (List.concat cs))) now) ->
  LIdx (snd (run (stream_write hash fl (Some key) o cs now) f)) /\
  is_dir (snd (run (stream_write hash fl (Some key) o cs now) f)) [index_dir] = true.
Proof.
  intros Hinv Hl Hns Hsz Hwf. destruct (stream_index f fl (Some key) o cs now Hinv Hns Hsz) as (f1 & Hfr & ->).
  apply lidx_insert; [|exact Hwf]. apply (lidx_shrink f); [exact Hl|]. intros l Hi. left. exact (Hfr l Hi).
Qed.

Definition c_indexes (o : cop) : bool :=
  match o with CWrite _ _ _ _ _ | CStream _ _ _ _ _ | CRemove _ _ => true | _ => false end.

(* an operation that writes an index record leaves index-v5/ in place; any other takes index nodes away at most, and
   not index-v5/ *)
Lemma lidx_cstep f o :
  CacheInv f -> LIdx f -> c_ok hash o = true ->
  LIdx (c_run hash f o) /\
  if c_indexes o then is_dir (c_run hash f o) [index_dir] = true
  else lookup (c_run hash f o) (InCache [index_dir]) = lookup f (InCache [index_dir]).
Proof.
  intros Hinv Hl Hok.
  assert (forall f', (forall l, is_index l -> lookup f' l = lookup f l) ->
            LIdx f' /\ lookup f' (InCache [index_dir]) = lookup f (InCache [index_dir])) as Hsame.
  { intros f' Hfr. split; [apply (lidx_shrink f); [exact Hl|]; intros l Hi; left; exact (Hfr l Hi)|apply Hfr; exists []; reflexivity]. }
  destruct o as [fl a key data now|fl key o cs now|fl a data|key now|a d|key]; cbn [c_run c_indexes] in *.
  - unfold write. rewrite (oneshot_stream hash _ _ _ _ _ _ Hinv). destruct (write_opts_ok fl a data) as (Hns & Hsz & Ea).
    apply lidx_stream; rewrite ?concat_oneshot, ?Ea; try assumption. exact (opts_ok_wf_rec hash key _ now Hok).
  - destruct (c_ok_stream hash _ _ _ _ _ Hok) as (Hns & Hsz & Hwf). exact (lidx_stream f fl key o cs now Hinv Hl Hns Hsz Hwf).
  - unfold write_hash. rewrite (oneshot_stream hash _ _ _ _ _ _ Hinv).
    destruct (stream_index f fl None (mkWopts (Some a) None (Some (lenN data)) None None None) (match data with [] => [] | _ => [data] end) 0 Hinv eq_refl) as (f1 & Hfr & ->).
    { rewrite concat_oneshot. apply N.eqb_refl. }
    exact (Hsame f1 Hfr).
  - rewrite delete_snd. exact (lidx_insert f key wopts0 now Hl (opts_ok_wf_rec hash key _ now Hok)).
  - apply Hsame. intros l Hli. apply (remove_hash_gone hash HL f a d (proj1 (proj2 Hinv))).
    intros <-. exact (index_not_content _ Hli (ex_intro _ _ eq_refl)).
  - split; [apply (lidx_shrink f); [exact Hl|]; intros l _; apply remove_steps_shrink, remove_fully_steps|].
    apply (remove_fully_frame hash); [destruct (bucket_path_shape hash key) as (x & y & z & ->); discriminate|].
    intros m cp _ Ecp. destruct (content_components_hex _ _ Ecp) as (al & x & y & z & -> & _). discriminate.
Qed.

Lemma nodup_cop f o : NoDupKeys f -> NoDupKeys (c_run hash f o).
Proof. intros H. destruct o; cbn [c_run]; apply nodup_run; exact H. Qed.

Theorem lhistory (h : list cop) f0 s0 :
  CInv hash f0 s0 -> LInv f0 -> forallb (c_ok hash) h = true -> NoColl hash (c_all (fold_left (c_step hash) h s0)) ->
  let f := fold_left (c_run hash) h f0 in
  CInv hash f (fold_left (c_step hash) h s0) /\ LInv f /\
  (existsb c_indexes h = true \/ is_dir f0 [index_dir] = true -> is_dir f [index_dir] = true).
Proof.
  revert f0 s0. induction h as [|o h IH]; intros f0 s0 H0 Hl0 Hok Hnc; cbn [fold_left existsb forallb] in *.
  - split; [exact H0|]. split; [exact Hl0|]. intros [X|X]; [discriminate|exact X].
  - apply andb_true_iff in Hok as [Hok1 Hok2].
    pose proof (cinv_step hash HL f0 s0 o H0 Hok1 (NoColl_history hash h _ Hnc)) as H1.
    destruct (lidx_cstep f0 o (proj1 H0) (proj2 Hl0) Hok1) as [L1 L2].
    destruct (IH _ _ H1 (conj (nodup_cop f0 o (proj1 Hl0)) L1) Hok2 Hnc) as (R1 & R2 & R3). split; [exact R1|]. split; [exact R2|].
    intros X. apply R3. destruct (c_indexes o); [right; exact L2|]. destruct X as [X|X]; [left; exact X|right].
    unfold is_dir in *. rewrite L2. exact X.
Qed.

(* C10 after any history from the empty cache: the listing is exactly the keys the specification map holds, each with the
   entry a lookup finds (its integrity the digest of the last data written under the key) *)
Theorem listing_after_history (h : list cop) :
  forallb (c_ok hash) h = true -> NoColl hash (c_all (fold_left (c_step hash) h cspec0)) -> existsb c_indexes h = true ->
  let f := fold_left (c_run hash) h [] in let s := fold_left (c_step hash) h cspec0 in
  exists items, run (ls hash) f = (Ok items, f) /\
    (forall it, In it items -> exists m, it = LMeta m) /\
    (forall m, In (LMeta m) items <-> abs_idx hash f (m_key m) = Some m) /\
    (forall k, (exists m, In (LMeta m) items /\ m_key m = k) <-> c_map s k <> None) /\
    (forall m a d, In (LMeta m) items -> c_map s (m_key m) = Some (a, d) -> m_sri m = sri_of hash a d).
Proof.
  intros Hok Hnc Hidx f s.
  destruct (lhistory h [] cspec0 (cinv_empty hash) linv_empty Hok Hnc) as (Hc & (Hn & Hi & Hd & Hb) & Hdir).
  fold f in Hc, Hn, Hi, Hd, Hb, Hdir. fold s in Hc.
  destruct (ls_whole hash f Hn Hi Hd Hb (Hdir (or_introl Hidx))) as (items & Hrun & Hall & Hiff).
  exists items. split; [exact Hrun|]. split; [exact Hall|]. split; [exact Hiff|].
  destruct Hc as (_ & Hm & _). split.
  - intros k. specialize (Hm k). split.
    + intros (m & Hin & Hk). apply Hiff in Hin. rewrite Hk in Hin. destruct (c_map s k) as [[a d]|]; [discriminate|congruence].
    + intros Hne. destruct (c_map s k) as [[a d]|]; [|contradiction]. destruct Hm as (_ & e & He & _).
      exists e. assert (m_key e = k) as Ek by (unfold abs_idx in He; exact (find_in_key _ _ _ He)). split; [apply Hiff; rewrite Ek; exact He|exact Ek].
  - intros m a d Hin Hk. apply Hiff in Hin. specialize (Hm (m_key m)). rewrite Hk in Hm. destruct Hm as (_ & e & He & Hs). congruence.
Qed.

End LH.
