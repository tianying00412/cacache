(* StepsP.v — which filesystem steps each API program issues, whatever the steps answer.  A property of the form
   "no step of this call does X" (crash invariants, confinement, frames, shapes) is then a fact about one of the step
   classes below, with no second walk through the program. *)
From CC Require Import Bytes Sri Fs Prog Api Crash FsP ProgP.
Local Open Scope N_scope.

Definition touches (R : loc -> Prop) (c : sys) : Prop := forall l, may_touch c l -> R l.

Definition tmpfile (l : loc) : Prop := exists n, l = InCache [bs "tmp"; n].

Definition read_step (c : sys) : Prop :=
  match c with ReadFile _ | Exists _ | WalkFiles _ | ReadDir _ => True | _ => False end.

(* opening a writer: the tmp directory, a fresh temp file, its preallocation, its removal on failure *)
Definition open_step (c : sys) : Prop :=
  match c with
  | MkdirAll p => p = tmp_dir
  | CreateTmp => True
  | Fallocate l _ | Unlink l => tmpfile l
  | _ => False
  end.

Definition tmp_step (t : loc) (c : sys) : Prop :=
  match c with
  | Fallocate l _ | MmapStore l _ _ | Truncate l _ | WriteAppend l _ | Unlink l => l = t
  | _ => False
  end.

Definition publish_step (t : loc) (cp : path) (c : sys) : Prop :=
  match c with
  | MkdirAll p => p = parent cp
  | Rename s d => s = t /\ d = InCache cp
  | Exists l => l = InCache cp
  | Unlink l => l = t
  | _ => False
  end.

Definition index_step (b : path) (c : sys) : Prop :=
  match c with
  | MkdirAll p => p = parent b
  | CreateIfMissing l | Append l _ => l = InCache b
  | _ => False
  end.

Definition remove_step (c : sys) : Prop := match c with Unlink _ => True | _ => read_step c end.

(* extractions: lookups, the verification read, and the one step that writes the destination *)
Definition extract_step (dst : loc) (c : sys) : Prop :=
  match c with CopyFile _ d | Link _ d | Reflink _ d => d = dst | _ => read_step c end.

Definition unlink_step (R : loc -> Prop) (c : sys) : Prop := match c with Unlink l => R l | _ => read_step c end.

(* clearing: the listing of the root, then one recursive removal per entry *)
Definition clear_step (c : sys) : Prop := match c with ReadDir _ | RemoveDirAll _ => True | _ => False end.

(* linking: the shard directories, the symlink at the content path [cp], the look whether it is there already *)
Definition link_step (cp : path) (c : sys) : Prop :=
  match c with MkdirAll p => p = parent cp | SymlinkTo _ l | Exists l => l = InCache cp | _ => False end.

Lemma read_step_touches R c : read_step c -> touches R c.
Proof. destruct c; cbn; intros H l0 Hl; contradiction. Qed.

Lemma tmp_step_touches t c : tmp_step t c -> touches (eq t) c.
Proof. destruct c; intros H l0 Hl; cbn in *; try contradiction; congruence. Qed.

Lemma open_step_touches c : open_step c -> touches (fun l => l = InCache tmp_dir \/ tmpfile l) c.
Proof.
  destruct c; intros H l0 Hl; cbn in *; try contradiction; subst; auto.
  destruct Hl as [<-|[]]. left. reflexivity.
Qed.

Lemma publish_step_touches t cp c :
  publish_step t cp c -> touches (fun l => l = t \/ In l (map InCache (prefixes (parent cp))) \/ l = InCache cp) c.
Proof. destruct c; intros H l0 Hl; cbn in *; try contradiction; subst; intuition congruence. Qed.

Lemma index_step_touches b c :
  index_step b c -> touches (fun l => In l (map InCache (prefixes (parent b))) \/ l = InCache b) c.
Proof. destruct c; intros H l0 Hl; cbn in *; try contradiction; subst; auto. Qed.

Lemma extract_step_touches dst c : extract_step dst c -> touches (eq dst) c.
Proof. destruct c; intros H l0 Hl; cbn in *; try contradiction; congruence. Qed.

Lemma unlink_step_touches R c : unlink_step R c -> touches R c.
Proof. destruct c; intros H l0 Hl; cbn in *; try contradiction. subst. exact H. Qed.

Lemma clear_step_touches c : clear_step c -> touches (fun l => exists p, l = InCache p) c.
Proof. destruct c; intros H l0 Hl; cbn in *; try contradiction. destruct l0; [eauto|discriminate]. Qed.

Lemma link_step_touches cp c :
  link_step cp c -> touches (fun l => In l (map InCache (prefixes (parent cp))) \/ l = InCache cp) c.
Proof. destruct c; intros H l0 Hl; cbn in *; try contradiction; subst; auto. Qed.

Lemma all_steps_touches {A} (R R' : loc -> Prop) (p : prog A) :
  (forall l, R l -> R' l) -> all_steps (touches R) p -> all_steps (touches R') p.
Proof. intros H. apply all_steps_impl. intros c Hc l Hl. exact (H l (Hc l Hl)). Qed.

Lemma read_step_exec c f : read_step c -> snd (exec c f) = f /\ mid_states c f = [].
Proof.
  destruct c; try contradiction; intros _; unfold exec, mid_states.
  - destruct (resolve f l) as [[d| |t]|]; split; reflexivity.
  - split; reflexivity.
  - destruct (is_dir f p); split; reflexivity.
  - destruct (is_dir f p); split; reflexivity.
Qed.

Lemma reads_fs {A} (p : prog A) f : all_steps read_step p -> snd (run p f) = f.
Proof.
  intros Hp. apply (run_invariant (fun g => g = f) (fun c _ => read_step c)); [|reflexivity|exact (all_steps_ok _ _ p (fun c _ H => H) Hp f)].
  intros c g -> Hc. exact (proj1 (read_step_exec c f Hc)).
Qed.

Lemma untouched_step (R : loc -> Prop) f c g :
  (forall l, R l -> lookup g l = lookup f l) -> touches (fun l => ~ R l) c ->
  (forall l, R l -> lookup (snd (exec c g)) l = lookup f l) /\
  Forall (fun h => forall l, R l -> lookup h l = lookup f l) (mid_states c g).
Proof.
  intros Hg Hc. split; [|apply Forall_forall; intros h Hh]; intros l Hl; rewrite <- (Hg l Hl);
    (destruct (exec_effect c g _ l ltac:(eauto)) as [E|[Ht _]]; [exact E|destruct (Hc l Ht Hl)]).
Qed.

(* frame: a region [R] that no step of a run touches is the same after it and at every crash state *)
Theorem untouched_crash {A} (R : loc -> Prop) (p : prog A) f :
  steps_ok (fun c _ => touches (fun l => ~ R l) c) p f ->
  Forall (fun g => forall l, R l -> lookup g l = lookup f l) (crash_states p f) /\
  (forall l, R l -> lookup (snd (run p f)) l = lookup f l).
Proof. exact (crash_invariant _ _ (untouched_step R f) p f (fun l _ => eq_refl)). Qed.

Lemma touches_frame {A} (R : loc -> Prop) (p : prog A) f l :
  all_steps (touches R) p -> ~ R l -> lookup (snd (run p f)) l = lookup f l.
Proof.
  intros Hp Hl. apply (untouched_crash (eq l)); [|reflexivity].
  apply (all_steps_ok _ _ p (fun c _ (Hc : touches R c) x Hx E => Hl (eq_ind_r R (Hc x Hx) E)) Hp).
Qed.

Section St.
Variable hash : algo -> bytes -> bytes.

Lemma read_file_reads l : all_steps read_step (read_file l).
Proof. split; [exact I|]. intros r; destruct r; exact I. Qed.

Lemma bucket_entries_reads b : all_steps read_step (bucket_entries hash b).
Proof. split; [exact I|]. intros r; destruct r as [| | | | | |[]]; exact I. Qed.

Lemma find_reads key : all_steps read_step (find hash key).
Proof. apply all_steps_rbind; [apply bucket_entries_reads|intros; exact I]. Qed.

Lemma with_cpath_steps {A} (S : sys -> Prop) i (k : loc -> prog (res A)) :
  (forall cp, content_path i = Some cp -> all_steps S (k (InCache cp))) -> all_steps S (with_cpath i k).
Proof. intros H. unfold with_cpath. destruct (content_path i); [apply H; reflexivity|exact I]. Qed.

Lemma by_key_steps {A} (S : sys -> Prop) key (k : integrity -> prog (res A)) :
  (forall c, read_step c -> S c) -> (forall i, all_steps S (k i)) -> all_steps S (by_key hash key k).
Proof.
  intros HS H. apply all_steps_rbind; [exact (all_steps_impl _ _ _ HS (find_reads key))|]. intros [m|]; [apply H|exact I].
Qed.

Lemma verify_reads i cp : all_steps read_step (verify hash i cp).
Proof. apply all_steps_rbind; [apply read_file_reads|]. intros d. destruct (check_res hash i d); exact I. Qed.

Lemma read_hash_reads i : all_steps read_step (read_hash hash i).
Proof.
  apply with_cpath_steps. intros cp _. apply all_steps_rbind; [apply read_file_reads|]. intros d.
  destruct (check_res hash i d); exact I.
Qed.

Lemma read_reads key : all_steps read_step (read hash key).
Proof. apply by_key_steps; [auto|apply read_hash_reads]. Qed.

Lemma ropen_hash_reads i : all_steps read_step (ropen_hash i).
Proof. apply with_cpath_steps. intros cp _. apply all_steps_rbind; [apply read_file_reads|intros; exact I]. Qed.

Lemma ropen_reads key : all_steps read_step (ropen hash key).
Proof. apply by_key_steps; [auto|apply ropen_hash_reads]. Qed.

Lemma exists_hash_reads i : all_steps read_step (exists_hash i).
Proof. apply with_cpath_steps. intros cp _. split; [exact I|]. intros r; destruct r; exact I. Qed.

Lemma ls_reads : all_steps read_step (ls hash).
Proof.
  split; [exact I|]. intros r. destruct r; try exact I. apply all_steps_bind; [|intros; exact I].
  induction l as [|b bs IH]; [exact I|]. cbn [ls_buckets].
  apply all_steps_bind; [apply bucket_entries_reads|]. intros r. apply all_steps_bind; [exact IH|intros; exact I].
Qed.

Lemma remove_hash_unlinks i :
  all_steps (unlink_step (fun l => exists cp, content_path i = Some cp /\ l = InCache cp)) (remove_hash i).
Proof. apply with_cpath_steps. intros cp E. apply all_steps_step_ok. cbn. eauto. Qed.

Lemma remove_fully_unlinks key :
  all_steps (unlink_step (fun l => l = InCache (bucket_path hash key) \/ exists i cp, content_path i = Some cp /\ l = InCache cp))
            (remove_fully hash key).
Proof.
  set (R := fun l => _ \/ _). assert (forall c, read_step c -> unlink_step R c) as Hr by (intros c; destruct c; cbn; tauto).
  apply all_steps_rbind; [exact (all_steps_impl _ _ _ Hr (find_reads key))|]. intros e. apply all_steps_rbind.
  - destruct e as [m|]; [|exact I]. apply with_cpath_steps. intros cp E. split; [right; eauto|].
    intros r. destruct r as [| | | | | |[]]; exact I.
  - intros _. apply all_steps_step_ok. left. reflexivity.
Qed.

Lemma unlink_remove_step R c : unlink_step R c -> remove_step c.
Proof. destruct c; cbn; auto. Qed.

Lemma remove_hash_steps i : all_steps remove_step (remove_hash i).
Proof. exact (all_steps_impl _ _ _ (unlink_remove_step _) (remove_hash_unlinks i)). Qed.

Lemma remove_fully_steps key : all_steps remove_step (remove_fully hash key).
Proof. exact (all_steps_impl _ _ _ (unlink_remove_step _) (remove_fully_unlinks key)). Qed.

Lemma clear_steps : all_steps clear_step clear.
Proof.
  split; [exact I|]. intros r. destruct r; try exact I. induction l as [|[p|e] ls IH]; [exact I| |exact IH].
  apply all_steps_rbind; [apply all_steps_step_ok; exact I|intros _; exact IH].
Qed.

Lemma extract_hash_steps x checked i dst : all_steps (extract_step dst) (extract_hash hash x checked i dst).
Proof.
  assert (forall c, read_step c -> extract_step dst c) as Hr by (intros c; destruct c; cbn; tauto).
  apply with_cpath_steps. intros cp _.
  assert (all_steps (extract_step dst) (xstep x (InCache cp) dst)) as Hx.
  { split; [destruct x; reflexivity|]. intros r; destruct r; exact I. }
  destruct checked; [|exact Hx]. apply all_steps_rbind; [exact (all_steps_impl _ _ _ Hr (verify_reads i _))|].
  intros n. apply all_steps_rbind; [exact Hx|intros; exact I].
Qed.

Lemma extract_steps x checked key dst : all_steps (extract_step dst) (extract hash x checked key dst).
Proof. apply by_key_steps; [intros c; destruct c; cbn; tauto|]. intros i. apply extract_hash_steps. Qed.

Lemma unlink_quiet_steps {A} (S : sys -> Prop) l (r : res A) : S (Unlink l) -> all_steps S (unlink_quiet l r).
Proof. intros H. split; [exact H|intros; exact I]. Qed.

Lemma open_writer_steps fl key o : all_steps open_step (open_writer fl key o).
Proof.
  apply all_steps_rbind; [apply all_steps_step_ok; reflexivity|intros _]. split; [exact I|]. intros r.
  destruct r; try exact I.
  destruct (content_size fl key o) as [sz|]; [|exact I]. destruct ((1 <=? sz) && (sz <=? max_mmap)); [|exact I].
  assert (tmpfile (InCache (tmp_dir ++ [n]))) as Ht by (exists n; reflexivity).
  split; [exact Ht|]. intros r2. destruct r2; try exact I. apply unlink_quiet_steps. exact Ht.
Qed.

Lemma write_chunk_steps w d : all_steps (tmp_step (w_tmp w)) (write_chunk w d).
Proof.
  unfold write_chunk. destruct (w_map w) as [sz|]; [destruct (w_pos w + lenN d <=? sz)|];
    repeat (apply all_steps_rbind; [apply all_steps_step_ok; reflexivity|intros _]); exact I.
Qed.

Lemma trim_steps w : all_steps (tmp_step (w_tmp w)) (trim w).
Proof.
  unfold trim. destruct (w_map w) as [sz|]; [destruct (w_pos w <? sz)|]; try exact I. apply all_steps_step_ok. reflexivity.
Qed.

Lemma publish_steps w cp sri : all_steps (publish_step (w_tmp w) cp) (publish w cp sri).
Proof.
  assert (forall r : res integrity, all_steps (publish_step (w_tmp w) cp) (unlink_quiet (w_tmp w) r)) as Hu
    by (intros r; apply unlink_quiet_steps; reflexivity).
  split; [reflexivity|]. intros r0. destruct r0; try apply Hu.
  all: split; [split; reflexivity|]; intros r; destruct r; try exact I.
  all: split; [reflexivity|]; intros r2; destruct r2 as [| |[|]| | | |]; apply Hu.
Qed.

Definition close_step (w : wstate) (c : sys) : Prop :=
  tmp_step (w_tmp w) c \/
  exists cp, content_path (sri_of hash (w_algo w) (w_data w)) = Some cp /\ publish_step (w_tmp w) cp c.

Lemma close_writer_steps w : all_steps (close_step w) (close_writer hash w).
Proof.
  unfold close_writer. destruct (content_path (sri_of hash (w_algo w) (w_data w))) as [cp|] eqn:E.
  - apply all_steps_bind; [exact (all_steps_impl _ _ _ (fun c H => or_introl H) (trim_steps w))|].
    intros rt. destruct rt; try (apply unlink_quiet_steps; left; reflexivity).
    apply (all_steps_impl (publish_step (w_tmp w) cp)); [|apply publish_steps]. intros c H. right. eauto.
  - apply unlink_quiet_steps. left. reflexivity.
Qed.

Lemma insert_steps key o now : all_steps (index_step (bucket_path hash key)) (insert hash key o now).
Proof. unfold insert. repeat (apply all_steps_rbind; [apply all_steps_step_ok; reflexivity|intros _]). exact I. Qed.

Lemma delete_steps key now : all_steps (index_step (bucket_path hash key)) (delete hash key now).
Proof. apply all_steps_rbind; [apply insert_steps|intros; exact I]. Qed.

Definition commit_step (w : wstate) (c : sys) : Prop :=
  close_step w c \/ exists key, w_key w = Some key /\ index_step (bucket_path hash key) c.

Lemma commit_steps w now : all_steps (commit_step w) (commit hash w now).
Proof.
  apply all_steps_rbind; [exact (all_steps_impl _ _ _ (fun c H => or_introl H) (close_writer_steps w))|]. intros wsri. cbv zeta.
  destruct (match o_sri (w_opts w) with Some d => match sri_matches d wsri with Some _ => Some d | None => None end | None => Some wsri end); [|exact I].
  destruct (match o_size (w_opts w) with Some s => negb (s =? w_written w) | None => false end); destruct (o_size (w_opts w));
    try exact I; destruct (w_key w) as [key|] eqn:Ek; try exact I;
    (apply (all_steps_impl (index_step (bucket_path hash key))); [intros c H; right; eauto|apply insert_steps]).
Qed.

Lemma open_linker_reads plain key o target : all_steps read_step (open_linker plain key o target).
Proof. apply all_steps_rbind; [apply read_file_reads|intros; exact I]. Qed.

Definition commit_linker_step (l : lstate) (c : sys) : Prop :=
  (exists cp, content_path (sri_of hash (l_algo l) (l_seen l ++ l_rest l)) = Some cp /\ link_step cp c) \/
  exists key, l_key l = Some key /\ index_step (bucket_path hash key) c.

Lemma commit_linker_steps l now : all_steps (commit_linker_step l) (commit_linker hash l now).
Proof.
  unfold commit_linker. destruct (content_path _) as [cp|] eqn:E; [|exact I].
  set (rest := match _ : option integrity with Some final => _ | None => _ end).
  assert (all_steps (commit_linker_step l) rest) as Hrest.
  { subst rest. destruct (match o_sri (l_opts l) with Some d => _ | None => _ end); [|exact I].
    destruct (match o_size (l_opts l) with Some s => _ | None => false end); destruct (o_size (l_opts l));
      try exact I; destruct (l_key l) as [key|] eqn:Ek; try exact I;
      (apply (all_steps_impl (index_step (bucket_path hash key))); [intros c H; right; eauto|apply insert_steps]). }
  assert (forall c, link_step cp c -> commit_linker_step l c) as Hl by (intros c H; left; eauto).
  apply all_steps_rbind; [apply all_steps_step_ok, Hl; reflexivity|intros _]. split; [apply Hl; reflexivity|].
  intros r. destruct r; try exact Hrest. split; [apply Hl; reflexivity|]. intros r2. destruct r2 as [| |[|]| | | |]; try exact I. exact Hrest.
Qed.

End St.
