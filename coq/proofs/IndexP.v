(* IndexP.v — index::insert / find / delete on the abstract filesystem refine a map key -> entry. *)
From CC Require Import Bytes Utf8 Lines Json Sri Record Fs Prog Api Crash BytesP RecordP FsP ProgP.
From Coq Require Import Lia.

Section I.
Variable hash : algo -> bytes -> bytes.

(* shape of the index area: directories down to depth 3, bucket files (without a pending CR) at depth 4 *)
Definition IndexInv (f : fs) : Prop :=
  forall p n, lookup f (InCache (index_dir :: p)) = Some n ->
    ((List.length p <= 2)%nat -> n = Dir) /\
    (List.length p = 3%nat -> exists d, n = File d /\ no_pending_cr d).

Definition bucket_bytes (f : fs) (key : bytes) : bytes :=
  match lookup f (InCache (bucket_path hash key)) with Some (File d) => d | _ => [] end.

Definition abs_idx (f : fs) (key : bytes) : option meta :=
  find_in key (entries hash (bucket_bytes f key)).

Definition no_ctrl (l : bytes) : Prop := forall b, In b l -> (32 <= b2n b)%N.
(* a record the codec handles faithfully (established for API-written records by [RecCodecP.wf_rec_api] / [MetaP.opts_ok_wf_rec]) *)
Definition wf_rec (m : smeta) : Prop :=
  let text := encode_smeta m in
  no_ctrl text /\ valid_utf8 (record_line hash text) = true /\ parse_smeta text = Some m.

Lemma no_ctrl_facts l : no_ctrl l ->
  (forall b, In b l -> Byte.eqb b nl = false) /\ (forall b, In b l -> Byte.eqb b tab = false) /\
  (forall b, In b l -> Byte.eqb b cr = false).
Proof.
  intros H. repeat split; intros b Hb; apply byte_eqb_neq; intros ->; exact (H _ Hb eq_refl).
Qed.

Lemma record_line_clean text x :
  no_ctrl text -> In x (record_line hash text) -> Byte.eqb x nl = false /\ Byte.eqb x cr = false.
Proof.
  intros Hc Hx. destruct (no_ctrl_facts text Hc) as (Hnl & _ & Hcr). unfold record_line in Hx.
  apply in_app_or in Hx as [Hx|[<-|Hx]]; [split; apply (hex_encode_clean _ _ Hx)|split; reflexivity|auto].
Qed.

Lemma ends_cr_no_cr s : (forall x, In x s -> Byte.eqb x cr = false) -> ends_cr s = false.
Proof.
  intros H. unfold ends_cr. destruct (rev s) as [|c r] eqn:E; [reflexivity|]. apply H, in_rev. rewrite E. left. reflexivity.
Qed.

Lemma entries_app_clean d line :
  no_pending_cr d -> (forall x, In x line -> Byte.eqb x nl = false /\ Byte.eqb x cr = false) ->
  entries hash (d ++ nl :: line) = entries hash d ++ contrib hash line /\ no_pending_cr (d ++ nl :: line).
Proof.
  intros Hd Hl. assert (no_nl line) as Hnl by (intros x Hx; apply Hl; exact Hx).
  split; [apply entries_app_line; assumption|].
  apply no_pending_cr_app; [exact Hnl|]. apply ends_cr_no_cr. intros x Hx. apply Hl. exact Hx.
Qed.

Lemma contrib_record m : wf_rec m -> contrib hash (record_line hash (encode_smeta m)) = [m].
Proof.
  intros [Hc [Hu Hp]]. unfold contrib. rewrite Hu.
  apply entry_of_record_line; [exact (proj1 (proj2 (no_ctrl_facts _ Hc)))|exact Hp].
Qed.

Lemma entries_app_record d m : no_pending_cr d -> wf_rec m ->
  entries hash (d ++ record_bytes hash m) = entries hash d ++ [m] /\ no_pending_cr (d ++ record_bytes hash m).
Proof.
  intros Hd Hw. rewrite <- (contrib_record m Hw). destruct Hw as [Hc _].
  apply entries_app_clean; [exact Hd|]. intros x. apply record_line_clean. exact Hc.
Qed.

Lemma bucket_path_shape key : exists a b c, bucket_path hash key = [index_dir; a; b; c].
Proof. unfold bucket_path. eauto. Qed.

Lemma prefixes_parent_bucket a b c :
  prefixes (parent [index_dir; a; b; c]) = [[index_dir]; [index_dir; a]; [index_dir; a; b]].
Proof. reflexivity. Qed.

Section Bucket.
Variable bk : path.
Hypothesis Hbk : exists a b c, bk = [index_dir; a; b; c].

Lemma bucket_dirs q : In q (prefixes (parent bk)) -> exists p, q = index_dir :: p /\ (List.length p <= 2)%nat.
Proof.
  destruct Hbk as (a & b & c & E). rewrite E. intros [<-|[<-|[<-|[]]]]; eexists; (split; [reflexivity|cbn; lia]).
Qed.

Lemma bucket_file f n : IndexInv f -> lookup f (InCache bk) = Some n -> exists d, n = File d /\ no_pending_cr d.
Proof. destruct Hbk as (a & b & c & E). rewrite E. intros Hinv El. exact (proj2 (Hinv [a; b; c] n El) eq_refl). Qed.

Lemma IndexInv_update_bucket f d : IndexInv f -> no_pending_cr d -> IndexInv (update f (InCache bk) (File d)).
Proof.
  intros Hinv Hd p n. rewrite lookup_update. destruct (loc_eqb _ _) eqn:E; [|apply Hinv].
  apply loc_eqb_eq in E. destruct Hbk as (a & b & c & Eb). rewrite Eb in E. injection E as <-.
  intros [= <-]. split; [intros H; cbn in H; lia|eauto].
Qed.

Definition more_dirs (f g : fs) : Prop :=
  forall l, lookup g l = lookup f l \/
    (lookup f l = None /\ lookup g l = Some Dir /\ exists p, l = InCache (index_dir :: p) /\ (List.length p <= 2)%nat).

Lemma more_dirs_inv f g : IndexInv f -> more_dirs f g -> IndexInv g.
Proof.
  intros Hinv Hg p n Hn. destruct (Hg (InCache (index_dir :: p))) as [E|(_ & E & q & [= <-] & Hq)]; rewrite E in Hn.
  - exact (Hinv p n Hn).
  - injection Hn as <-. split; [reflexivity|lia].
Qed.

Lemma more_dirs_bucket f g : more_dirs f g -> lookup g (InCache bk) = lookup f (InCache bk).
Proof.
  intros Hg. destruct (Hg (InCache bk)) as [E|(_ & _ & q & Eq & Hq)]; [exact E|].
  destruct Hbk as (a & b & c & E). rewrite E in Eq. injection Eq as <-. cbn in Hq. lia.
Qed.

Lemma more_dirs_outside f g l :
  more_dirs f g -> (forall p, l <> InCache (index_dir :: p)) -> lookup g l = lookup f l.
Proof. intros Hg Hl. destruct (Hg l) as [E|(_ & _ & q & E & _)]; [exact E|destruct (Hl q E)]. Qed.

Lemma more_dirs_keeps f g l n : more_dirs f g -> lookup f l = Some n -> lookup g l = Some n.
Proof. intros Hg Hn. destruct (Hg l) as [E|(E & _)]; congruence. Qed.

Lemma bucket_dirs_ok f : IndexInv f -> forall q, In q (prefixes (parent bk)) -> dir_or_absent f q.
Proof.
  intros Hinv q Hq. destruct (bucket_dirs q Hq) as (p & -> & Hp). unfold dir_or_absent.
  destruct (lookup f (InCache (index_dir :: p))) as [n|] eqn:En; [right|left; reflexivity].
  rewrite (proj1 (Hinv p n En) Hp). reflexivity.
Qed.

Lemma index_mkdir f : IndexInv f ->
  exists f1, exec (MkdirAll (parent bk)) f = (ROk, f1) /\ lookup f1 (InCache (parent bk)) = Some Dir /\
    forall g, g = f1 \/ In g (mid_states (MkdirAll (parent bk)) f) -> more_dirs f g.
Proof.
  intros Hinv. destruct (exec_mkdirall_ok f (parent bk) (bucket_dirs_ok f Hinv)) as (f1 & E & Hl).
  exists f1. split; [exact E|]. split.
  - rewrite Hl, (proj2 (in_prefixes_b _ _)); [reflexivity|apply prefixes_last]. destruct Hbk as (a & b & c & ->). discriminate.
  - intros g Hg l. replace f1 with (snd (exec (MkdirAll (parent bk)) f)) in Hg by (rewrite E; reflexivity).
    destruct (mkdirs_effect f (prefixes (parent bk)) g l Hg) as [H|(H0 & H1 & Hin)]; [left; exact H|right].
    apply in_map_iff in Hin as (q & <- & Hq). destruct (bucket_dirs q Hq) as (p & -> & Hp). eauto 6.
Qed.

Lemma index_mkdir_top f f1 : IndexInv f -> exec (MkdirAll (parent bk)) f = (ROk, f1) -> is_dir f1 [index_dir] = true.
Proof.
  intros Hinv E. destruct (exec_mkdirall_ok f (parent bk) (bucket_dirs_ok f Hinv)) as (f1' & E' & Hl).
  rewrite E in E'. injection E' as <-. unfold is_dir. rewrite Hl. destruct Hbk as (a & b & c & ->). reflexivity.
Qed.

Lemma index_create f : IndexInv f -> lookup f (InCache (parent bk)) = Some Dir ->
  exists f2, exec (CreateIfMissing (InCache bk)) f = (ROk, f2) /\ IndexInv f2 /\
    lookup f2 (InCache bk) = Some (File (match lookup f (InCache bk) with Some (File d) => d | _ => [] end)) /\
    forall l, l <> InCache bk -> lookup f2 l = lookup f l.
Proof.
  intros Hinv Hpar. destruct (lookup f (InCache bk)) as [n|] eqn:E.
  - destruct (bucket_file f n Hinv E) as (d & -> & _). exists f. split; [exact (exec_create_file f _ d E)|]. auto.
  - exists (update f (InCache bk) (File [])).
    split; [apply (exec_create_absent _ _ E), is_dir_of_lookup, Hpar|].
    split; [apply IndexInv_update_bucket; [exact Hinv|reflexivity]|].
    split; [apply lookup_update_eq|intros l Hl; apply lookup_update_neq; congruence].
Qed.

End Bucket.

Lemma bucket_lookup f key : IndexInv f ->
  lookup f (InCache (bucket_path hash key)) = None \/
  exists d, lookup f (InCache (bucket_path hash key)) = Some (File d) /\ no_pending_cr d.
Proof.
  intros Hinv. destruct (lookup f _) as [n|] eqn:E; [right|left; reflexivity].
  destruct (bucket_file _ (bucket_path_shape key) f n Hinv E) as (d & -> & Hd). eauto.
Qed.

Lemma bucket_bytes_clean f key : IndexInv f -> no_pending_cr (bucket_bytes f key).
Proof.
  intros Hinv. unfold bucket_bytes. destruct (bucket_lookup f key Hinv) as [->|(d & -> & Hd)]; [reflexivity|exact Hd].
Qed.

Theorem find_run f key : IndexInv f -> run (find hash key) f = (Ok (abs_idx f key), f).
Proof.
  intros Hinv. unfold find, bucket_entries, abs_idx, bucket_bytes.
  unfold rbind. rewrite run_bind. cbn [run].
  destruct (bucket_lookup f key Hinv) as [Hn|[d [Hd _]]].
  - rewrite (exec_readfile_absent _ _ Hn), Hn. reflexivity.
  - rewrite (exec_readfile_file _ _ _ Hd), Hd. reflexivity.
Qed.

(* an insert is mkdir -p of the bucket's directories, then the record appended to the bucket *)
Theorem insert_result f key o now :
  IndexInv f -> wf_rec (smeta_of key o now) ->
  exists f1 f', more_dirs f f1 /\ is_dir f1 [index_dir] = true /\
    run (insert hash key o now) f = (Ok (match o_sri o with Some i => i | None => deadbeef end), f') /\ IndexInv f' /\
    forall l, lookup f' l = if loc_eqb (InCache (bucket_path hash key)) l
                            then Some (File (bucket_bytes f key ++ record_bytes hash (smeta_of key o now))) else lookup f1 l.
Proof.
  intros Hinv Hwf. pose proof (bucket_path_shape key) as Hbk.
  destruct (index_mkdir _ Hbk f Hinv) as (f1 & E1 & Hpar & Hmk). specialize (Hmk f1 (or_introl eq_refl)).
  destruct (index_create _ Hbk f1 (more_dirs_inv f f1 Hinv Hmk) Hpar) as (f2 & E2 & Hi2 & Hb2 & Hfr2).
  rewrite (more_dirs_bucket _ Hbk f f1 Hmk) in Hb2. fold (bucket_bytes f key) in Hb2. unfold insert.
  rewrite (run_rbind_ok _ _ _ tt f1 (run_step_ok _ _ _ _ E1 I)), (run_rbind_ok _ _ _ tt f2 (run_step_ok _ _ _ _ E2 I)),
    (run_rbind_ok _ _ _ tt _ (run_step_ok _ _ _ _ (exec_append f2 _ _ _ Hb2) I)).
  exists f1. eexists. split; [exact Hmk|]. split; [exact (index_mkdir_top _ Hbk f f1 Hinv E1)|]. split; [reflexivity|]. split.
  - apply (IndexInv_update_bucket _ Hbk); [exact Hi2|].
    exact (proj2 (entries_app_record _ _ (bucket_bytes_clean f key Hinv) Hwf)).
  - intros l. rewrite lookup_update. destruct (loc_eqb _ l) eqn:E; [reflexivity|]. apply Hfr2. apply loc_eqb_neq in E. congruence.
Qed.

Theorem insert_run f key o now :
  IndexInv f -> wf_rec (smeta_of key o now) ->
  exists f',
    run (insert hash key o now) f = (Ok (match o_sri o with Some i => i | None => deadbeef end), f') /\
    IndexInv f' /\
    lookup f' (InCache (bucket_path hash key))
      = Some (File (bucket_bytes f key ++ record_bytes hash (smeta_of key o now))) /\
    (forall l, l <> InCache (bucket_path hash key) ->
       lookup f' l = lookup f l \/
       (lookup f l = None /\ lookup f' l = Some Dir /\ exists p, l = InCache (index_dir :: p) /\ (List.length p <= 2)%nat)).
Proof.
  intros Hinv Hwf. destruct (insert_result f key o now Hinv Hwf) as (f1 & f' & Hmk & _ & Hr & Hi & Hl).
  exists f'. split; [exact Hr|]. split; [exact Hi|]. split; [rewrite Hl, loc_eqb_refl; reflexivity|].
  intros l Hn. rewrite Hl. destruct (loc_eqb _ l) eqn:E; [apply loc_eqb_eq in E; congruence|apply Hmk].
Qed.

Lemma insert_buckets f key o now b :
  IndexInv f -> wf_rec (smeta_of key o now) -> (exists a c d, b = [index_dir; a; c; d]) ->
  lookup (snd (run (insert hash key o now) f)) (InCache b) =
  if path_eqb (bucket_path hash key) b
  then Some (File (bucket_bytes f key ++ record_bytes hash (smeta_of key o now))) else lookup f (InCache b).
Proof.
  intros Hinv Hwf Hb. destruct (insert_result f key o now Hinv Hwf) as (f1 & f' & Hmk & _ & -> & _ & Hl). cbn [snd].
  rewrite Hl. cbn [loc_eqb]. destruct (path_eqb _ _); [reflexivity|exact (more_dirs_bucket b Hb f f1 Hmk)].
Qed.

(* what the inserted record means for a lookup of [k] *)
Definition new_entry (key : bytes) (o : wopts) (now : N) : option meta :=
  match o_sri o with
  | Some i => Some (mkMeta key i (match o_time o with Some t => t | None => now end)
                          (match o_size o with Some s => s | None => 0%N end)
                          (match o_meta o with Some m => m | None => JNull end) (o_raw o))
  | None => None
  end.

Definition wf_sri_opt (o : wopts) : Prop :=
  forall i, o_sri o = Some i -> parse_entry_sri (sri_text i) = Some i.

Lemma find_in_snoc key o now k es :
  wf_sri_opt o -> find_in k (es ++ [smeta_of key o now]) = if bytes_eqb k key then new_entry key o now else find_in k es.
Proof.
  intros Hs. destruct (bytes_eqb k key) eqn:E.
  - apply bytes_eqb_eq in E as ->. rewrite find_in_app. unfold find_step, smeta_of, new_entry.
    cbn [sm_key sm_integrity sm_time sm_size sm_metadata sm_raw]. rewrite bytes_eqb_refl.
    destruct (o_sri o) as [i|] eqn:Ei; cbn [option_map]; [rewrite (Hs i Ei)|]; reflexivity.
  - apply find_in_app_other. cbn [smeta_of sm_key]. intros ->. rewrite bytes_eqb_refl in E. discriminate.
Qed.

Lemma insert_abs_idx f key o now k :
  IndexInv f -> wf_rec (smeta_of key o now) -> wf_sri_opt o ->
  abs_idx (snd (run (insert hash key o now) f)) k = if bytes_eqb k key then new_entry key o now else abs_idx f k.
Proof.
  intros Hinv Hwf Hs. unfold abs_idx at 1. unfold bucket_bytes at 1.
  rewrite (insert_buckets f key o now _ Hinv Hwf (bucket_path_shape k)). destruct (path_eqb _ _) eqn:E.
  - apply path_eqb_eq in E.
    rewrite (proj1 (entries_app_record _ _ (bucket_bytes_clean f key Hinv) Hwf)), (find_in_snoc key o now k _ Hs).
    unfold abs_idx, bucket_bytes. rewrite E. reflexivity.
  - destruct (bytes_eqb k key) eqn:Ekk; [|reflexivity].
    apply bytes_eqb_eq in Ekk as ->. rewrite (proj2 (path_eqb_eq _ _) eq_refl) in E. discriminate.
Qed.

Theorem insert_abs f key o now :
  IndexInv f -> wf_rec (smeta_of key o now) -> wf_sri_opt o ->
  IndexInv (snd (run (insert hash key o now) f)) /\
  fst (run (insert hash key o now) f) = Ok (match o_sri o with Some i => i | None => deadbeef end) /\
  (forall k, abs_idx (snd (run (insert hash key o now) f)) k
             = if bytes_eqb k key then new_entry key o now else abs_idx f k) /\
  (forall l, (forall p, l <> InCache (index_dir :: p)) ->
             lookup (snd (run (insert hash key o now) f)) l = lookup f l).
Proof.
  intros Hinv Hwf Hs. pose proof (fun k => insert_abs_idx f key o now k Hinv Hwf Hs) as Habs.
  destruct (insert_run f key o now Hinv Hwf) as (f' & Hrun & Hinv' & _ & Ho). rewrite Hrun in *. cbn [fst snd] in *.
  split; [exact Hinv'|]. split; [reflexivity|]. split; [exact Habs|].
  intros l Hl. destruct (bucket_path_shape key) as (a & b & c & Eb).
  destruct (Ho l) as [H|(_ & _ & p & E & _)]; [rewrite Eb; apply Hl|exact H|destruct (Hl p E)].
Qed.

Inductive hop := HIns (key : bytes) (o : wopts) (now : N) | HDel (key : bytes) (now : N).

Definition exec_hop (f : fs) (h : hop) : fs :=
  match h with
  | HIns key o now => snd (run (insert hash key o now) f)
  | HDel key now => snd (run (delete hash key now) f)
  end.

Definition spec_step (s : bytes -> option meta) (h : hop) : bytes -> option meta :=
  fun k => match h with
           | HIns key o now => if bytes_eqb k key then new_entry key o now else s k
           | HDel key _ => if bytes_eqb k key then None else s k
           end.

Definition wf_hop (h : hop) : Prop :=
  match h with
  | HIns key o now => wf_rec (smeta_of key o now) /\ wf_sri_opt o
  | HDel key now => wf_rec (smeta_of key wopts0 now)
  end.

Lemma delete_snd f key now : snd (run (delete hash key now) f) = snd (run (insert hash key wopts0 now) f).
Proof.
  unfold delete, rbind. rewrite run_bind. destruct (run (insert hash key wopts0 now) f) as [r f'].
  destruct r; reflexivity.
Qed.

Lemma exec_hop_spec f h :
  IndexInv f -> wf_hop h ->
  IndexInv (exec_hop f h) /\ (forall k, abs_idx (exec_hop f h) k = spec_step (abs_idx f) h k) /\
  (forall l, (forall p, l <> InCache (index_dir :: p)) -> lookup (exec_hop f h) l = lookup f l).
Proof.
  intros Hinv Hw. destruct h as [key o now|key now]; cbn [exec_hop spec_step wf_hop] in *.
  - destruct Hw as [Hw Hs]. destruct (insert_abs f key o now Hinv Hw Hs) as [H1 [_ [H2 H3]]]. auto.
  - rewrite delete_snd.
    destruct (insert_abs f key wopts0 now Hinv Hw) as [H1 [_ [H2 H3]]]; [intros i Hi; discriminate|]. auto.
Qed.

Lemma spec_steps_ext h s s' :
  (forall k, s k = s' k) -> forall k, fold_left spec_step h s k = fold_left spec_step h s' k.
Proof.
  revert s s'. induction h as [|x h IH]; intros s s' E; [exact E|]. apply IH.
  intros k. destruct x; cbn [spec_step]; rewrite E; reflexivity.
Qed.

Theorem abs_idx_hist (h : list hop) f0 :
  IndexInv f0 -> Forall wf_hop h ->
  IndexInv (fold_left exec_hop h f0) /\
  (forall k, abs_idx (fold_left exec_hop h f0) k = fold_left spec_step h (abs_idx f0) k).
Proof.
  revert f0. induction h as [|x h IH]; intros f0 Hinv Hw; [split; [exact Hinv|reflexivity]|].
  inversion Hw as [|? ? Hx Hh]; subst. destruct (exec_hop_spec f0 x Hinv Hx) as (Hinv' & Habs & _).
  destruct (IH _ Hinv' Hh) as (Hinv'' & Hk). split; [exact Hinv''|].
  intros k. cbn [fold_left]. rewrite Hk. apply spec_steps_ext. exact Habs.
Qed.

(* C05: after any history, a lookup returns what the abstract map says *)
Theorem find_refines_map (h : list hop) f0 :
  IndexInv f0 -> Forall wf_hop h ->
  IndexInv (fold_left exec_hop h f0) /\
  (forall k, run (find hash k) (fold_left exec_hop h f0)
             = (Ok (fold_left spec_step h (abs_idx f0) k), fold_left exec_hop h f0)).
Proof.
  intros Hinv Hw. destruct (abs_idx_hist h f0 Hinv Hw) as [Hi Hk]. split; [exact Hi|].
  intros k. rewrite (find_run _ k Hi), Hk. reflexivity.
Qed.

(* writes to one key never change what another key returns; earlier entries never resurface *)
Corollary spec_last_write_wins h s key o now k :
  fold_left spec_step (h ++ [HIns key o now]) s k = if bytes_eqb k key then new_entry key o now else fold_left spec_step h s k.
Proof. rewrite fold_left_app. reflexivity. Qed.

Corollary spec_removed_absent h s key now k :
  fold_left spec_step (h ++ [HDel key now]) s k = if bytes_eqb k key then None else fold_left spec_step h s k.
Proof. rewrite fold_left_app. reflexivity. Qed.

End I.
