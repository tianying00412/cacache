(* MetaP.v — C11: everything a writer attaches to an entry comes back unchanged; truthful defaults.
   Uses the codec round trip of JsonP / RecCodecP to discharge [wf_rec] for every record an API call can write. *)
From CC Require Import Bytes Utf8 Json Sri Record Prog Api BytesP SriP RecordP IndexP JsonP RecCodecP.
Local Open Scope N_scope.

Section M.
Variable hash : algo -> bytes -> bytes.

(* what the caller supplies, as boolean side conditions (all satisfiable; see the Example in props/C11.v) *)
Definition meta_ok (j : jv) : bool :=
  jclean j && jutf8 j && Nat.leb (jdepth j) 126 && jcanon j.
Definition opts_ok (key : bytes) (o : wopts) (now : N) : bool :=
  valid_utf8 key && opt_utf8 (option_map sri_text (o_sri o)) &&
  ((match o_time o with Some t => t | None => now end) <? n128) &&
  ((match o_size o with Some s => s | None => 0 end) <? n64) &&
  meta_ok (match o_meta o with Some j => j | None => JNull end).

Lemma rec_ok_smeta_of key o now : rec_ok (smeta_of key o now) = opts_ok key o now.
Proof.
  unfold opts_ok, meta_ok, rec_ok, smeta_of. cbn [sm_key sm_integrity sm_time sm_size sm_metadata].
  rewrite !andb_assoc. reflexivity.
Qed.

Theorem opts_ok_wf_rec key o now : opts_ok key o now = true -> wf_rec hash (smeta_of key o now).
Proof. intros H. apply wf_rec_api. rewrite rec_ok_smeta_of. exact H. Qed.

(* index::insert then a lookup: exactly the supplied fields *)
Theorem insert_find_roundtrip f key o now :
  IndexInv f -> opts_ok key o now = true -> wf_sri_opt o ->
  let f' := snd (run (insert hash key o now) f) in
  run (find hash key) f' = (Ok (new_entry key o now), f') /\
  (forall k, k <> key -> run (find hash k) f' = (Ok (abs_idx hash f k), f')).
Proof.
  intros Hinv Hok Hs f'. destruct (insert_abs hash f key o now Hinv (opts_ok_wf_rec key o now Hok) Hs) as [Hi' [_ [Habs _]]].
  fold f' in Hi', Habs. split.
  - rewrite (find_run hash f' key Hi'), Habs, bytes_eqb_refl. reflexivity.
  - intros k Hk. rewrite (find_run hash f' k Hi'), Habs. apply bytes_eqb_neq in Hk. rewrite Hk. reflexivity.
Qed.

(* the listing of the key's bucket carries the same entry *)
Theorem insert_listed f key o now i :
  IndexInv f -> opts_ok key o now = true -> wf_sri_opt o -> o_sri o = Some i ->
  let f' := snd (run (insert hash key o now) f) in
  exists m, new_entry key o now = Some m /\ In m (ls_bytes hash (bucket_bytes hash f' key)).
Proof.
  intros Hinv Hok Hs Hi f'. destruct (insert_abs hash f key o now Hinv (opts_ok_wf_rec key o now Hok) Hs) as [_ [_ [Habs _]]].
  fold f' in Habs. specialize (Habs key). rewrite bytes_eqb_refl in Habs.
  unfold new_entry in *. rewrite Hi in *. eexists. split; [reflexivity|].
  unfold ls_bytes. apply (find_listed key). exact Habs.
Qed.

Definition integrity_eqb (a b : integrity) : bool := list_eqb hashv_eqb a b.
Lemma integrity_eqb_eq a b : integrity_eqb a b = true -> a = b.
Proof. apply (proj1 (list_eqb_eq hashv_eqb hashv_eqb_eq a b)). Qed.

Definition sri_opt_ok (o : wopts) : bool :=
  match o_sri o with
  | Some i => match parse_entry_sri (sri_text i) with Some j => integrity_eqb j i | None => false end
  | None => true
  end.
Lemma sri_opt_ok_wf o : sri_opt_ok o = true -> wf_sri_opt o.
Proof.
  unfold sri_opt_ok, wf_sri_opt. intros H i Hi. rewrite Hi in H. destruct (parse_entry_sri (sri_text i)) as [j|]; [|discriminate].
  rewrite (integrity_eqb_eq j i H). reflexivity.
Qed.

(* boolean side conditions for whole histories: the [wf_hop] hypothesis of C05 / C17 / C04 discharged *)
Definition hop_ok (h : hop) : bool :=
  match h with
  | HIns key o now => opts_ok key o now && sri_opt_ok o
  | HDel key now => opts_ok key wopts0 now
  end.
Lemma hop_ok_wf h : hop_ok h = true -> wf_hop hash h.
Proof.
  destruct h as [key o now|key now]; cbn [hop_ok wf_hop]; intros H.
  - apply andb_true_iff in H as [H1 H2]. split; [apply opts_ok_wf_rec; exact H1|apply sri_opt_ok_wf; exact H2].
  - apply opts_ok_wf_rec. exact H.
Qed.

(* C05 with every hypothesis decidable: histories of inserts / removals with UTF-8 keys, timestamps < 2^128, sizes < 2^64,
   normal-form metadata and addressable integrities refine the map *)
Theorem find_refines_map_closed (h : list hop) f0 :
  IndexInv f0 -> forallb hop_ok h = true ->
  IndexInv (fold_left (exec_hop hash) h f0) /\
  (forall k, run (find hash k) (fold_left (exec_hop hash) h f0)
             = (Ok (fold_left spec_step h (abs_idx hash f0) k), fold_left (exec_hop hash) h f0)).
Proof.
  intros Hi Hh. apply find_refines_map; [exact Hi|]. apply Forall_forall. intros x Hx. apply hop_ok_wf.
  rewrite forallb_forall in Hh. exact (Hh x Hx).
Qed.

End M.
