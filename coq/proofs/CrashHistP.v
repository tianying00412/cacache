(* CrashHistP.v — C04 for the whole operation and over histories: a kill at ANY point of a keyed write (opening the
   writer, any chunk, trimming, publishing, the index append torn at any length) leaves every other key's lookup as it
   was and the written key at its previous entry or at the complete new one (content stored); and this from every state
   a history of writes and removals reaches, so that reads after the crash answer from the history's specification. *)
From CC Require Import Bytes Sri Record Fs Prog Api Crash ProgP StepsP IndexP WriteP CommitP CrashIdxP KeepP
  HistP.
Local Open Scope N_scope.

Section CH.
Variable hash : algo -> bytes -> bytes.
Hypothesis HL : HashLen hash.

Definition old_or_new (f : fs) (key : bytes) (o' : wopts) (now : N) (cp : path) (data : bytes) (c : fs) : Prop :=
  IndexInv c /\
  (forall k, k <> key -> abs_idx hash c k = abs_idx hash f k) /\
  (abs_idx hash c key = abs_idx hash f key \/
   (abs_idx hash c key = new_entry key o' now /\ lookup c (InCache cp) = Some (File data))).

Lemma old_or_new_frame f key o' now cp data c :
  IndexInv f -> (forall l, is_index l -> lookup c l = lookup f l) -> old_or_new f key o' now cp data c.
Proof.
  intros Hi Hfr. split; [exact (IndexInv_frame f c Hi Hfr)|]. split; [intros k _; apply (abs_idx_frame hash); exact Hfr|left; apply (abs_idx_frame hash); exact Hfr].
Qed.

Lemma old_or_new_trans f g key o' now cp data c :
  (forall l, is_index l -> lookup g l = lookup f l) -> old_or_new g key o' now cp data c -> old_or_new f key o' now cp data c.
Proof.
  intros Hfr [Hi [Ho Hk]]. pose proof (abs_idx_frame hash f g Hfr) as Ha.
  split; [exact Hi|]. split; [intros k Hne; rewrite (Ho k Hne); apply Ha|rewrite <- (Ha key); exact Hk].
Qed.

(* a piece of the write whose steps stay under tmp/, run from a tree [g] with the index area of [f] *)
Lemma tmp_steps_old {A} (p : prog A) f g key o' now cp data :
  IndexInv f -> (forall l, is_index l -> lookup g l = lookup f l) -> steps_ok (fun c _ => touches is_tmp c) p g ->
  Forall (old_or_new f key o' now cp data) (crash_states p g) /\
  (forall l, is_index l -> lookup (snd (run p g)) l = lookup f l).
Proof.
  intros Hi Hg Hp. destruct (untouched_crash is_index p g) as [Hall Hfin].
  { revert Hp. apply steps_ok_impl. intros c _ Hc l Hl Hx. exact (index_not_tmp l Hx (Hc l Hl)). }
  split; [|intros l Hl; rewrite (Hfin l Hl); exact (Hg l Hl)].
  eapply Forall_impl; [|exact Hall]. intros c Hc. apply old_or_new_frame; [exact Hi|]. intros l Hl. rewrite (Hc l Hl). exact (Hg l Hl).
Qed.

(* the whole keyed streamed write: opening and the chunk writes stay under tmp/; the commit is [commit_keyed_crash] *)
Theorem stream_write_keyed_crash f fl key o cs now :
  CacheInv f -> o_sri o = None -> size_ok o (lenN (List.concat cs)) = true ->
  let data := List.concat cs in let a := algo_of o in
  let o' := commit_opts o (sri_of hash a data) (lenN data) in
  wf_rec hash (smeta_of key o' now) -> PrefixFree hash (encode_smeta (smeta_of key o' now)) ->
  Forall (old_or_new f key o' now (cpath hash a data) data) (crash_states (stream_write hash fl (Some key) o cs now) f).
Proof.
  intros Hinv Hns Hs data a o' Hwf Hpf.
  destruct (stream_write_decomp f fl (Some key) o cs Hinv) as (w0 & f1 & w & f2 & Hr1 & Hr2 & Hw & Hi2 & Hk & Ho & Ha & Hd & _ & Hfr).
  destruct (tmp_steps_old (open_writer fl (Some key) o) f f key o' now (cpath hash a data) data (proj1 Hinv) (fun _ _ => eq_refl)) as [C1 F1].
  { apply (all_steps_ok open_step); [intros c g; exact (open_step_touches c)|apply open_writer_steps]. }
  rewrite Hr1 in F1. pose proof (open_writer_result f _ _ _ _ _ Hr1) as [Hw0 _].
  destruct (tmp_steps_old (write_chunks w0 cs) f f1 key o' now (cpath hash a data) data (proj1 Hinv) F1) as [C2 _].
  { exact (steps_ok_impl _ _ _ _ (fun c _ => tmp_step_is_tmp _ c (proj1 Hw0)) (write_chunks_steps f1 w0 cs Hw0)). }
  unfold stream_write, rbind. apply crash_states_bind. split; [exact C1|]. rewrite Hr1. cbn [fst snd].
  apply crash_states_bind. split; [exact C2|]. rewrite Hr2. cbn [fst snd].
  assert (declared_ok (w_opts w) (sri_of hash (w_algo w) (w_data w)) = Some (sri_of hash a data)) as Hdo
    by (unfold declared_ok; rewrite Ho, Hns, Ha, Hd; reflexivity).
  pose proof (commit_keyed_crash hash HL f2 w now key _ Hw Hi2 Hk Hdo) as Hc. rewrite Ho, Hd, Ha in Hc.
  eapply Forall_impl; [|exact (Hc Hs Hwf (parse_entry_computed hash _ _ HL) Hpf)].
  intros c. apply old_or_new_trans. intros l Hl. apply Hfr. exact (index_not_tmp l Hl).
Qed.

(* after any history: a kill at any point of the next keyed write; what every other key, and the key itself, read
   afterwards *)
Theorem crash_reads_after_history (h : list cop) fl key o cs now :
  forallb (c_ok hash) h = true -> c_ok hash (CStream fl key o cs now) = true ->
  NoColl hash (c_all (c_step hash (fold_left (c_step hash) h cspec0) (CStream fl key o cs now))) ->
  let f := fold_left (c_run hash) h [] in let s := fold_left (c_step hash) h cspec0 in
  let data := List.concat cs in let a := algo_of o in
  PrefixFree hash (encode_smeta (smeta_of key (commit_opts o (sri_of hash a data) (lenN data)) now)) ->
  Forall (fun c =>
            (forall k, k <> key ->
               match c_map s k with
               | Some (a0, d0) => memb (a0, d0) (c_stored s) = true -> run (read hash k) c = (Ok d0, c)
               | None => run (read hash k) c = (Err ENotFound, c)
               end) /\
            (run (read hash key) c = (c_read s key, c) \/ run (read hash key) c = (Ok data, c) \/
             exists a0 d0, c_map s key = Some (a0, d0) /\ memb (a0, d0) (c_stored s) = false))
         (crash_states (stream_write hash fl (Some key) o cs now) f).
Proof.
  intros Hok Hokw Hnc f s data a Hpf. destruct (c_ok_stream hash _ _ _ _ _ Hokw) as (Hns & Hsz & Hwf).
  destruct (chistory_refines hash HL h [] cspec0 (cinv_empty hash) Hok (NoColl_history hash [_] _ Hnc)) as (Hinv & Hm & Hst).
  fold f s in Hinv, Hm, Hst.
  pose proof (stream_write_keyed_crash f fl key o cs now Hinv Hns Hsz Hwf Hpf) as Hcr. fold data a in Hcr.
  apply Forall_forall. intros c Hin. rewrite Forall_forall in Hcr. destruct (Hcr c Hin) as (Hic & Hoth & Hkey).
  (* a stored content of the history is still there at [c] *)
  assert (forall a0 d0, In (a0, d0) (c_all s) -> memb (a0, d0) (c_stored s) = true -> lookup c (InCache (cpath hash a0 d0)) = Some (File d0)) as Hkeep.
  { intros a0 d0 Hin0 Hmem. pose proof (Hst a0 d0 Hin0) as Hl0. rewrite Hmem in Hl0.
    destruct (stream_write_keeps hash HL (InCache (cpath hash a0 d0)) (ex_intro _ a0 (ex_intro _ d0 eq_refl)) f fl (Some key) o cs now d0 Hinv Hl0) as [Hall _].
    - intros E. assert (cpath hash a data = cpath hash a0 d0) as E' by (unfold a, data; congruence).
      apply (Hnc a data a0 d0); [left; reflexivity|right; exact Hin0|exact E'].
    - rewrite Forall_forall in Hall. exact (Hall c Hin). }
  (* a key whose lookup at [c] is as before reads what the history says *)
  assert (forall k, abs_idx hash c k = abs_idx hash f k ->
            match c_map s k with
            | Some (a0, d0) => memb (a0, d0) (c_stored s) = true -> run (read hash k) c = (Ok d0, c)
            | None => run (read hash k) c = (Err ENotFound, c)
            end) as Hrd.
  { intros k Ek. unfold read.
    rewrite (by_key_entry hash (c_all s) c k _ _ Hic (entry_ok_frame hash _ _ f c k _ (incl_refl _) Ek (Hm k))).
    specialize (Hm k). destruct (c_map s k) as [[a0 d0]|]; [|reflexivity].
    intros Hmem. apply (read_hash_stored hash HL). exact (Hkeep a0 d0 (proj1 Hm) Hmem). }
  split; [intros k Hne; exact (Hrd k (Hoth k Hne))|]. destruct Hkey as [Hold|[Hnew Hcp]].
  - specialize (Hrd key Hold). unfold c_read. destruct (c_map s key) as [[a0 d0]|]; [|left; exact Hrd].
    destruct (memb (a0, d0) (c_stored s)) eqn:Hmem; [left; exact (Hrd eq_refl)|right; right; exists a0, d0; split; [reflexivity|exact Hmem]].
  - right. left. unfold new_entry, commit_opts in Hnew. cbn [o_sri] in Hnew.
    rewrite (read_by_key hash c key _ Hic Hnew). cbn [m_sri]. apply (read_hash_stored hash HL). exact Hcp.
Qed.

End CH.
