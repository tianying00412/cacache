(* HistP.v — reads see the latest write, over histories (C02 + C05 + C09; the checked copy out of the cache for C18).
   After any sequence of writes (one-shot, streamed, by address) and removals (of a key, of content by address, full),
   from any cache that refines a specification state, reads by key and by address answer what the specification says.
   The two invariants have one shape ([Inv]), kept by each operation; the refinements are inductions over the history. *)
From CC Require Import Bytes Sri Record Fs Prog Api Crash BytesP FsP ProgP StepsP SriP IndexP ReadP WriteP
  CommitP RemoveP KeepP MetaP.
Local Open Scope N_scope.

Section Hist.
Variable hash : algo -> bytes -> bytes.
Hypothesis HL : HashLen hash.

Inductive kvop :=
| KWrite (fl : flavour) (a : algo) (key data : bytes) (now : N)
| KRemove (key : bytes) (now : N).

Definition kv_run (f : fs) (o : kvop) : fs :=
  match o with
  | KWrite fl a k d now => snd (run (write hash fl a k d now) f)
  | KRemove k now => snd (run (delete hash k now) f)
  end.

(* the specification: a map from keys to what was last written *)
Definition kv := bytes -> option (algo * bytes).
Definition kv_step (m : kv) (o : kvop) : kv :=
  fun k => match o with
           | KWrite _ a key d _ => if bytes_eqb k key then Some (a, d) else m k
           | KRemove key _ => if bytes_eqb k key then None else m k
           end.

(* decidable side conditions on the caller's arguments (UTF-8 key, time < 2^128, size < 2^64): what the record codec needs *)
Definition kv_ok (o : kvop) : bool :=
  match o with
  | KWrite fl a key d now => opts_ok key (commit_opts (write_opts fl a d) (sri_of hash a d) (lenN d)) now
  | KRemove key now => opts_ok key wopts0 now
  end.

Definition written (h : list kvop) : list (algo * bytes) :=
  flat_map (fun o => match o with KWrite _ a _ d _ => [(a, d)] | KRemove _ _ => [] end) h.

(* no two different data of the history share a content path (no digest collision among them) *)
Definition NoColl (W : list (algo * bytes)) : Prop :=
  forall a d a' d', In (a, d) W -> In (a', d') W -> cpath hash a d = cpath hash a' d' -> d = d'.

(* the common shape of [HInv] and [CInv] below; first what the index holds for a key that the specification
   maps to [v] *)
Definition entry_ok (U : list (algo * bytes)) (f : fs) (k : bytes) (v : option (algo * bytes)) : Prop :=
  match v with
  | Some (a, d) => In (a, d) U /\ exists e, abs_idx hash f k = Some e /\ m_sri e = sri_of hash a d
  | None => abs_idx hash f k = None
  end.

(* [U]: the named (algorithm, data) pairs; [E x]: what the content path of the pair [x] must hold *)
Definition Inv (f : fs) (m : kv) (U : list (algo * bytes)) (E : algo * bytes -> option node) : Prop :=
  CacheInv f /\ (forall k, entry_ok U f k (m k)) /\
  (forall a d, In (a, d) U -> lookup f (InCache (cpath hash a d)) = E (a, d)).

Definition HInv (f : fs) (m : kv) (W : list (algo * bytes)) : Prop :=
  CacheInv f /\
  (forall k, match m k with
             | Some (a, d) => In (a, d) W /\ exists e, abs_idx hash f k = Some e /\ m_sri e = sri_of hash a d
             | None => abs_idx hash f k = None
             end) /\
  (forall a d, In (a, d) W -> lookup f (InCache (cpath hash a d)) = Some (File d)).

Lemma entry_ok_frame U U' f f' k v :
  incl U U' -> abs_idx hash f' k = abs_idx hash f k -> entry_ok U f k v -> entry_ok U' f' k v.
Proof.
  intros HU E. unfold entry_ok. rewrite E. destruct v as [[a d]|]; [|auto]. intros [Hin He]. split; [exact (HU _ Hin)|exact He].
Qed.

Lemma by_key_entry {A} U f key v (k : integrity -> prog (res A)) :
  IndexInv f -> entry_ok U f key v ->
  run (by_key hash key k) f = match v with Some (a, d) => run (k (sri_of hash a d)) f | None => (Err ENotFound, f) end.
Proof.
  intros Hi Hv. rewrite by_key_run, (find_run hash f key Hi). cbn [fst].
  destruct v as [[a d]|]; cbn [entry_ok] in Hv; [destruct Hv as (_ & e & -> & <-)|rewrite Hv]; reflexivity.
Qed.

Lemma inv_empty E : Inv [] (fun _ => None) [] E.
Proof.
  split; [split; [intros p n H; discriminate|split; [intros p n H; discriminate|left; reflexivity]]|].
  split; [intros k; reflexivity|intros a d []].
Qed.

Lemma nocoll_pair W a d a' d' :
  NoColl W -> In (a, d) W -> In (a', d') W -> cpath hash a d = cpath hash a' d' -> (a, d) = (a', d').
Proof.
  intros Hn H1 H2 E. pose proof (Hn _ _ _ _ H1 H2 E) as Ed. subst d'. f_equal.
  destruct (algo_eqb a a') eqn:Ea; [apply algo_eqb_eq; exact Ea|]. exfalso.
  apply (algos_disjoint hash a d a' d); [intros X; rewrite X, algo_eqb_refl in Ea; discriminate|exact E].
Qed.

(* the content part after an operation that acts on the content file of (a, d) alone *)
Lemma store_step f f' (E E' : algo * bytes -> option node) U U' a d :
  NoColl U' -> (forall x, In x U' <-> (a, d) = x \/ In x U) -> (forall x, (a, d) <> x -> E' x = E x) ->
  lookup f' (InCache (cpath hash a d)) = E' (a, d) ->
  (forall l, cfile hash l -> InCache (cpath hash a d) <> l -> lookup f' l = lookup f l) ->
  (forall a0 d0, In (a0, d0) U -> lookup f (InCache (cpath hash a0 d0)) = E (a0, d0)) ->
  forall a0 d0, In (a0, d0) U' -> lookup f' (InCache (cpath hash a0 d0)) = E' (a0, d0).
Proof.
  intros Hnc HU HE Hnew Hfr Hold a0 d0 Hin.
  destruct (loc_eq_dec (InCache (cpath hash a d)) (InCache (cpath hash a0 d0))) as [X|X].
  - assert (cpath hash a d = cpath hash a0 d0) as X' by congruence.
    pose proof (nocoll_pair U' a d a0 d0 Hnc (proj2 (HU _) (or_introl eq_refl)) Hin X') as Y.
    inversion Y; subst a0 d0. exact Hnew.
  - assert ((a, d) <> (a0, d0)) as Hne by (intros Y; inversion Y; subst; exact (X eq_refl)).
    destruct (proj1 (HU _) Hin) as [Y|Y]; [contradiction|].
    rewrite (Hfr _ (ex_intro _ a0 (ex_intro _ d0 eq_refl)) X), (HE _ Hne). exact (Hold a0 d0 Y).
Qed.

Lemma write_steps_frame {A} (p : prog A) f a data key l :
  steps_ok (write_step hash a data key) p f -> cfile hash l -> InCache (cpath hash a data) <> l ->
  lookup (snd (run p f)) l = lookup f l.
Proof.
  intros Hs Hl Hne. apply (untouched_crash (eq l)); [|reflexivity].
  apply (steps_ok_impl (write_step hash a data key)); [|exact Hs]. intros c g [H _] x Hx <-.
  destruct (write_touches_content hash a data key c l H Hl Hx) as (_ & _ & _ & E). exact (Hne (eq_sym E)).
Qed.

Lemma stream_write_frame f fl key o cs now l :
  cfile hash l -> InCache (cpath hash (algo_of o) (List.concat cs)) <> l ->
  lookup (snd (run (stream_write hash fl key o cs now) f)) l = lookup f l.
Proof. apply (write_steps_frame _ f _ _ key), (stream_write_steps hash HL). Qed.

Lemma write_hash_frame f fl a data l :
  cfile hash l -> InCache (cpath hash a data) <> l -> lookup (snd (run (write_hash hash fl a data) f)) l = lookup f l.
Proof.
  exact (write_steps_frame _ f a data None l (oneshot_steps hash HL f fl None (mkWopts (Some a) None (Some (lenN data)) None None None) data 0)).
Qed.

Lemma inv_stream f m U E U' E' fl key o cs now :
  let a := algo_of o in let data := List.concat cs in
  Inv f m U E -> o_sri o = None -> size_ok o (lenN data) = true ->
  wf_rec hash (smeta_of key (commit_opts o (sri_of hash a data) (lenN data)) now) ->
  NoColl U' -> (forall x, In x U' <-> (a, data) = x \/ In x U) -> (forall x, (a, data) <> x -> E' x = E x) ->
  E' (a, data) = Some (File data) ->
  Inv (snd (run (stream_write hash fl (Some key) o cs now) f)) (fun k => if bytes_eqb k key then Some (a, data) else m k) U' E'.
Proof.
  intros a data (Hinv & Hm & Hst) Hns Hsz Hwf Hnc HU HE Hnew.
  destruct (stream_write_keyed_roundtrip hash HL f fl key o cs now Hinv Hns Hsz Hwf) as (_ & Hinv' & _ & _ & Hfr & e & He & _ & Hsri & _).
  pose proof (stream_write_keyed_stored hash HL f fl key o cs now Hinv Hns Hsz Hwf) as Hcp. fold a data in Hcp, Hsri.
  set (f' := snd (run (stream_write hash fl (Some key) o cs now) f)) in *.
  split; [exact Hinv'|]. split.
  - intros k. destruct (bytes_eqb k key) eqn:Ek.
    + apply bytes_eqb_eq in Ek. subst k. split; [apply HU; left; reflexivity|]. exists e. split; [|exact Hsri].
      pose proof (find_run hash f' key (proj1 Hinv')) as X. rewrite He in X. congruence.
    + apply bytes_eqb_neq in Ek. apply (entry_ok_frame U U' f); [intros x Hx; apply HU; right; exact Hx|exact (Hfr k Ek)|exact (Hm k)].
  - apply (store_step f f' E E' U U' a data); [exact Hnc|exact HU|exact HE|exact (eq_trans Hcp (eq_sym Hnew))| |exact Hst].
    intros l. apply stream_write_frame.
Qed.

(* the one-shot write is the streamed write of zero or one chunk *)
Lemma inv_write f m U E U' E' fl a key data now :
  Inv f m U E -> wf_rec hash (smeta_of key (commit_opts (write_opts fl a data) (sri_of hash a data) (lenN data)) now) ->
  NoColl U' -> (forall x, In x U' <-> (a, data) = x \/ In x U) -> (forall x, (a, data) <> x -> E' x = E x) ->
  E' (a, data) = Some (File data) ->
  Inv (snd (run (write hash fl a key data now) f)) (fun k => if bytes_eqb k key then Some (a, data) else m k) U' E'.
Proof.
  intros H Hwf. unfold write. rewrite (oneshot_stream hash _ _ _ _ _ f (proj1 H)).
  destruct (write_opts_ok fl a data) as (Hns & Hsz & Ea).
  pose proof (inv_stream f m U E U' E' fl key (write_opts fl a data) (match data with [] => [] | _ => [data] end) now H) as X.
  cbv zeta in X. rewrite concat_oneshot, Ea in X. exact (X Hns Hsz Hwf).
Qed.

Lemma inv_delete f m U E key now :
  Inv f m U E -> wf_rec hash (smeta_of key wopts0 now) ->
  Inv (snd (run (delete hash key now) f)) (fun k => if bytes_eqb k key then None else m k) U E.
Proof.
  intros (Hinv & Hm & Hst) Hwf. destruct (remove_scope hash f key now (proj1 Hinv) Hwf) as (_ & Hi' & Habs & Hfr & _).
  set (f' := snd (run (delete hash key now) f)) in *.
  assert (forall l, ~ is_index l -> lookup f' l = lookup f l) as Hfr'.
  { intros l Hl. apply Hfr. intros p ->. apply Hl. exists p. reflexivity. }
  split; [exact (CacheInv_index_frame f f' Hinv Hi' Hfr')|split].
  - intros k. unfold entry_ok. rewrite Habs. destruct (bytes_eqb k key); [reflexivity|exact (Hm k)].
  - intros a d Hin. rewrite Hfr'; [exact (Hst a d Hin)|]. intros X. exact (index_not_content _ X (cpath_content hash _ _)).
Qed.

Lemma hinv_step f m W o :
  HInv f m W -> kv_ok o = true -> NoColl (W ++ written [o]) ->
  HInv (kv_run f o) (kv_step m o) (W ++ written [o]).
Proof.
  intros H Hok Hnc. change (Inv f m W (fun x => Some (File (snd x)))) in H.
  destruct o as [fl a key data now|key now]; cbn [kv_run kv_step written flat_map app] in *.
  - apply (inv_write f m W _ _ (fun x => Some (File (snd x))) fl a key data now H (opts_ok_wf_rec hash key _ now Hok) Hnc); [|reflexivity|reflexivity].
    intros x. rewrite in_app_iff. cbn [In]. tauto.
  - rewrite app_nil_r. exact (inv_delete f m W _ key now H (opts_ok_wf_rec hash key _ now Hok)).
Qed.

Lemma written_app h o : written (h ++ [o]) = written h ++ written [o].
Proof. unfold written. rewrite flat_map_app. reflexivity. Qed.

Lemma NoColl_prefix W W' : NoColl (W ++ W') -> NoColl W.
Proof. intros H a d a' d' H1 H2. apply H; apply in_or_app; left; assumption. Qed.

Theorem history_refines (h : list kvop) f0 m0 W0 :
  HInv f0 m0 W0 -> forallb kv_ok h = true -> NoColl (W0 ++ written h) ->
  HInv (fold_left kv_run h f0) (fold_left kv_step h m0) (W0 ++ written h).
Proof.
  revert f0 m0 W0. induction h as [|o h IH] using rev_ind; intros f0 m0 W0 H0 Hok Hnc.
  - cbn. rewrite app_nil_r. exact H0.
  - rewrite forallb_app in Hok. apply andb_true_iff in Hok as [Hok1 Hok2]. cbn [forallb] in Hok2. rewrite andb_true_r in Hok2.
    rewrite !fold_left_app. cbn [fold_left]. rewrite written_app, app_assoc in *.
    apply hinv_step; [|exact Hok2|exact Hnc]. apply IH; [exact H0|exact Hok1|exact (NoColl_prefix _ _ Hnc)].
Qed.

(* what the invariant means for a caller *)
Theorem hinv_reads f m W :
  HInv f m W ->
  (forall k, run (read hash k) f = (match m k with Some (a, d) => Ok d | None => Err ENotFound end, f)) /\
  (forall a d, In (a, d) W -> run (read_hash hash (sri_of hash a d)) f = (Ok d, f)).
Proof.
  intros (Hinv & Hm & Hst). split.
  - intros k. unfold read. rewrite (by_key_entry W f k _ _ (proj1 Hinv) (Hm k)). specialize (Hm k).
    destruct (m k) as [[a d]|]; [|reflexivity]. apply (read_hash_stored hash HL). exact (Hst a d (proj1 Hm)).
  - intros a d Hin. apply (read_hash_stored hash HL). exact (Hst a d Hin).
Qed.

Lemma hinv_empty : HInv [] (fun _ => None) [].
Proof. exact (inv_empty (fun x => Some (File (snd x)))). Qed.

(* from the empty cache: the reads after any history are those of the map *)
Corollary reads_see_latest_write (h : list kvop) :
  forallb kv_ok h = true -> NoColl (written h) ->
  let f := fold_left kv_run h [] in
  forall k, run (read hash k) f = (match fold_left kv_step h (fun _ => None) k with Some (a, d) => Ok d | None => Err ENotFound end, f).
Proof.
  intros Hok Hnc f k. exact (proj1 (hinv_reads _ _ _ (history_refines h [] _ [] hinv_empty Hok Hnc)) k).
Qed.

Lemma kv_last_write h m fl a key d now k :
  fold_left kv_step (h ++ [KWrite fl a key d now]) m k = if bytes_eqb k key then Some (a, d) else fold_left kv_step h m k.
Proof. rewrite fold_left_app. reflexivity. Qed.
Lemma kv_removed h m key now k :
  fold_left kv_step (h ++ [KRemove key now]) m k = if bytes_eqb k key then None else fold_left kv_step h m k.
Proof. rewrite fold_left_app. reflexivity. Qed.

End Hist.

Section Hist2.
Variable hash : algo -> bytes -> bytes.
Hypothesis HL : HashLen hash.

Definition ad_eqb (x y : algo * bytes) : bool := algo_eqb (fst x) (fst y) && bytes_eqb (snd x) (snd y).
Lemma ad_eqb_eq x y : ad_eqb x y = true <-> x = y.
Proof.
  destruct x as [a d], y as [a' d']. unfold ad_eqb. cbn [fst snd]. rewrite andb_true_iff, algo_eqb_eq, bytes_eqb_eq.
  split; [intros [-> ->]; reflexivity|intros E; inversion E; auto].
Qed.
Definition memb (x : algo * bytes) (l : list (algo * bytes)) : bool := existsb (ad_eqb x) l.
Lemma memb_cons x y l : memb x (y :: l) = ad_eqb x y || memb x l.
Proof. reflexivity. Qed.
Definition del (x : algo * bytes) (l : list (algo * bytes)) : list (algo * bytes) := filter (fun y => negb (ad_eqb x y)) l.
Lemma memb_del_same x l : memb x (del x l) = false.
Proof.
  induction l as [|y l IH]; [reflexivity|]. cbn [del filter]. destruct (ad_eqb x y) eqn:E; cbn [negb]; [exact IH|].
  fold (del x l). rewrite memb_cons, E, IH. reflexivity.
Qed.
Lemma memb_del_other x y l : x <> y -> memb y (del x l) = memb y l.
Proof.
  intros Hne. induction l as [|z l IH]; [reflexivity|]. cbn [del filter]. fold (del x l).
  destruct (ad_eqb x z) eqn:E; cbn [negb].
  - apply ad_eqb_eq in E. subst z. rewrite memb_cons, IH.
    destruct (ad_eqb y x) eqn:E2; [apply ad_eqb_eq in E2; congruence|reflexivity].
  - rewrite !memb_cons, IH. reflexivity.
Qed.

Inductive cop :=
| CWrite (fl : flavour) (a : algo) (key data : bytes) (now : N)
| CStream (fl : flavour) (key : bytes) (o : wopts) (cs : list bytes) (now : N)
| CWriteHash (fl : flavour) (a : algo) (data : bytes)
| CRemove (key : bytes) (now : N)
| CRemoveHash (a : algo) (d : bytes)
| CRemoveFully (key : bytes).

Definition c_run (f : fs) (o : cop) : fs :=
  match o with
  | CWrite fl a k d now => snd (run (write hash fl a k d now) f)
  | CStream fl k o cs now => snd (run (stream_write hash fl (Some k) o cs now) f)
  | CWriteHash fl a d => snd (run (write_hash hash fl a d) f)
  | CRemove k now => snd (run (delete hash k now) f)
  | CRemoveHash a d => snd (run (remove_hash (sri_of hash a d)) f)
  | CRemoveFully k => snd (run (remove_fully hash k) f)
  end.

(* the specification: the map, what is stored now, everything that was ever named *)
Record cspec := mkC { c_map : kv; c_stored : list (algo * bytes); c_all : list (algo * bytes) }.
Definition c_step (s : cspec) (o : cop) : cspec :=
  match o with
  | CWrite _ a key d _ =>
      mkC (fun k => if bytes_eqb k key then Some (a, d) else c_map s k) ((a, d) :: c_stored s) ((a, d) :: c_all s)
  | CStream _ key o cs _ =>
      let ad := (algo_of o, List.concat cs) in
      mkC (fun k => if bytes_eqb k key then Some ad else c_map s k) (ad :: c_stored s) (ad :: c_all s)
  | CWriteHash _ a d => mkC (c_map s) ((a, d) :: c_stored s) ((a, d) :: c_all s)
  | CRemove key _ => mkC (fun k => if bytes_eqb k key then None else c_map s k) (c_stored s) (c_all s)
  | CRemoveHash a d => mkC (c_map s) (del (a, d) (c_stored s)) ((a, d) :: c_all s)
  | CRemoveFully key =>
      (* the bucket file is unlinked: every key that shares it is gone with it; the key's content is deleted *)
      mkC (fun k => if list_eqb bytes_eqb (bucket_path hash k) (bucket_path hash key) then None else c_map s k)
          (match c_map s key with Some ad => del ad (c_stored s) | None => c_stored s end) (c_all s)
  end.

Definition c_ok (o : cop) : bool :=
  match o with
  | CWrite fl a key d now => opts_ok key (commit_opts (write_opts fl a d) (sri_of hash a d) (lenN d)) now
  | CStream fl key o cs now =>
      match o_sri o with None => true | Some _ => false end && size_ok o (lenN (List.concat cs)) &&
      opts_ok key (commit_opts o (sri_of hash (algo_of o) (List.concat cs)) (lenN (List.concat cs))) now
  | CWriteHash _ _ _ => true
  | CRemove key now => opts_ok key wopts0 now
  | CRemoveHash _ _ => true
  | CRemoveFully _ => true
  end.

Lemma c_ok_stream fl key o cs now :
  c_ok (CStream fl key o cs now) = true ->
  o_sri o = None /\ size_ok o (lenN (List.concat cs)) = true /\
  wf_rec hash (smeta_of key (commit_opts o (sri_of hash (algo_of o) (List.concat cs)) (lenN (List.concat cs))) now).
Proof.
  cbn [c_ok]. intros H. apply andb_true_iff in H as [H Hopts]. apply andb_true_iff in H as [Hns Hsz].
  split; [destruct (o_sri o); [discriminate|reflexivity]|]. split; [exact Hsz|exact (opts_ok_wf_rec hash key _ now Hopts)].
Qed.

Definition c_read (s : cspec) (k : bytes) : res bytes :=
  match c_map s k with
  | Some (a, d) => if memb (a, d) (c_stored s) then Ok d else Err EIoErr
  | None => Err ENotFound
  end.

Definition CInv (f : fs) (s : cspec) : Prop :=
  CacheInv f /\
  (forall k, match c_map s k with
             | Some (a, d) => In (a, d) (c_all s) /\ exists e, abs_idx hash f k = Some e /\ m_sri e = sri_of hash a d
             | None => abs_idx hash f k = None
             end) /\
  (forall a d, In (a, d) (c_all s) ->
     lookup f (InCache (cpath hash a d)) = if memb (a, d) (c_stored s) then Some (File d) else None).

(* what the content path of a named pair holds when [St] are the stored ones *)
Definition held (St : list (algo * bytes)) (x : algo * bytes) : option node := if memb x St then Some (File (snd x)) else None.
Lemma held_cons_same x St : held (x :: St) x = Some (File (snd x)).
Proof. unfold held. rewrite memb_cons, (proj2 (ad_eqb_eq x x) eq_refl). reflexivity. Qed.
Lemma held_cons_other y St x : y <> x -> held (y :: St) x = held St x.
Proof. intros H. unfold held. rewrite memb_cons. destruct (ad_eqb x y) eqn:E; [apply ad_eqb_eq in E; congruence|reflexivity]. Qed.
Lemma held_del_same x St : held (del x St) x = None.
Proof. unfold held. rewrite memb_del_same. reflexivity. Qed.
Lemma held_del_other y St x : y <> x -> held (del y St) x = held St x.
Proof. intros H. unfold held. rewrite (memb_del_other _ _ _ H). reflexivity. Qed.

Lemma read_hash_gone f a d :
  lookup f (InCache (cpath hash a d)) = None -> run (read_hash hash (sri_of hash a d)) f = (Err EIoErr, f).
Proof.
  intros H. rewrite (read_hash_eq hash f _ _ (content_path_computed hash a d HL)). unfold resolve. rewrite H. reflexivity.
Qed.

Lemma remove_steps_shrink {A} (p : prog A) f l :
  all_steps remove_step p -> lookup (snd (run p f)) l = lookup f l \/ lookup (snd (run p f)) l = None.
Proof.
  intros Hp. apply (run_invariant (fun g => lookup g l = lookup f l \/ lookup g l = None) (fun c _ => remove_step c));
    [|left; reflexivity|apply (all_steps_ok remove_step); auto].
  intros c g Hg Hc. destruct (exec_effect c g _ l (or_introl eq_refl)) as [E|(_ & [E|(n & _ & Hn)])];
    [rewrite E; exact Hg|right; exact E|destruct c; contradiction].
Qed.

Lemma CacheInv_shrink f f' : CacheInv f -> (forall l, lookup f' l = lookup f l \/ lookup f' l = None) -> CacheInv f'.
Proof.
  intros (Hi & Hcs & Hts) Hsh. split; [|split].
  - intros p n Hl. destruct (Hsh (InCache (index_dir :: p))) as [E|E]; rewrite E in Hl; [exact (Hi p n Hl)|discriminate].
  - intros p n Hl. destruct (Hsh (InCache (content_dir :: p))) as [E|E]; rewrite E in Hl; [exact (Hcs p n Hl)|discriminate].
  - unfold TmpShape, dir_or_absent in *. destruct (Hsh (InCache tmp_dir)) as [E|E]; rewrite E; [exact Hts|left; reflexivity].
Qed.

Lemma remove_hash_gone f a d :
  ContentShape f ->
  let f' := snd (run (remove_hash (sri_of hash a d)) f) in
  lookup f' (InCache (cpath hash a d)) = None /\ forall l, InCache (cpath hash a d) <> l -> lookup f' l = lookup f l.
Proof.
  intros Hcs f'. destruct (remove_hash_scope f (sri_of hash a d)) as [Hfr Hcp].
  specialize (Hcp _ (content_path_computed hash a d HL)). fold f' in Hfr, Hcp. split.
  - destruct (lookup f (InCache (cpath hash a d))) as [[x| |t]|] eqn:Ec; try exact (proj2 Hcp).
    + destruct (proj2 (Hcs _ _ Ec) eq_refl eq_refl).
    + rewrite (proj2 Hcp). exact Ec.
  - intros l Hl. apply Hfr. intros cp X. rewrite (content_path_computed hash a d HL) in X. congruence.
Qed.

Lemma remove_fully_gone f key U v :
  CacheInv f -> entry_ok hash U f key v ->
  let f' := snd (run (remove_fully hash key) f) in
  lookup f' (InCache (bucket_path hash key)) = None /\
  match v with Some (a, d) => lookup f' (InCache (cpath hash a d)) = None | None => True end /\
  forall l, cfile hash l -> match v with Some (a, d) => InCache (cpath hash a d) <> l | None => True end -> lookup f' l = lookup f l.
Proof.
  intros (Hi & Hcs & _) Hv f'.
  assert (forall l, cfile hash l -> InCache (bucket_path hash key) <> l) as Hcb
    by (intros l Hl <-; exact (bucket_not_content hash key (cfile_content hash _ Hl))).
  destruct v as [[a d]|]; cbn [entry_ok] in Hv.
  - destruct Hv as (_ & e & He & Hs).
    destruct (remove_fully_run hash f key e (cpath hash a d) Hi He) as (g & Hr & Hg).
    { rewrite Hs. exact (content_path_computed hash a d HL). }
    { intros X. exact (proj2 (Hcs _ _ X) eq_refl eq_refl). }
    { intros X. apply (bucket_not_content hash key). rewrite <- X. eexists. reflexivity. }
    unfold f'. rewrite Hr. cbn [snd]. split; [rewrite Hg, loc_eqb_refl, orb_true_r; reflexivity|].
    split; [rewrite Hg, loc_eqb_refl; reflexivity|]. intros l Hl H2.
    rewrite Hg, (proj2 (loc_eqb_neq _ _) (Hcb l Hl)), (proj2 (loc_eqb_neq _ _) H2). reflexivity.
  - unfold f'. rewrite (remove_fully_no_entry hash f key Hi Hv).
    split; [|split; [exact I|intros l Hl _; apply run_unlink_frame, not_eq_sym, Hcb, Hl]].
    rewrite run_unlink. destruct (bucket_lookup hash f key Hi) as [E|(d & E & _)]; rewrite E; [exact E|apply lookup_remove_eq].
Qed.

Lemma cinv_step f s o :
  CInv f s -> c_ok o = true -> NoColl hash (c_all (c_step s o)) -> CInv (c_run f o) (c_step s o).
Proof.
  intros H Hok Hnc. change (Inv hash f (c_map s) (c_all s) (held (c_stored s))) in H.
  change (Inv hash (c_run f o) (c_map (c_step s o)) (c_all (c_step s o)) (held (c_stored (c_step s o)))).
  destruct o as [fl a key data now|fl key o cs now|fl a data|key now|a d|key]; cbn [c_run c_step c_map c_stored c_all] in *.
  - apply (inv_write hash HL f _ _ _ _ _ fl a key data now H (opts_ok_wf_rec hash key _ now Hok) Hnc); [reflexivity|apply held_cons_other|apply held_cons_same].
  - destruct (c_ok_stream _ _ _ _ _ Hok) as (Hns & Hsz & Hwf).
    apply (inv_stream hash HL f _ _ _ _ _ fl key o cs now H Hns Hsz Hwf Hnc); [reflexivity|apply held_cons_other|apply held_cons_same].
  - (* write by address: the index is as before *)
    destruct H as (Hinv & Hm & Hst). destruct (write_hash_roundtrip hash HL f fl a data Hinv) as (_ & Hinv' & _ & Hfr).
    split; [exact Hinv'|]. split.
    + intros k. exact (entry_ok_frame hash _ _ f _ k _ (incl_tl _ (incl_refl _)) (Hfr k) (Hm k)).
    + apply (store_step hash f _ (held (c_stored s)) _ (c_all s) _ a data Hnc); [reflexivity|apply held_cons_other| | |exact Hst].
      * rewrite held_cons_same. exact (write_hash_stored hash HL f fl a data Hinv).
      * intros l. apply (write_hash_frame hash HL).
  - exact (inv_delete hash f _ _ _ key now H (opts_ok_wf_rec hash key _ now Hok)).
  - (* removal of content by address *)
    destruct H as (Hinv & Hm & Hst). destruct (remove_hash_gone f a d (proj1 (proj2 Hinv))) as [Hgone Hfr].
    split; [|split].
    + apply (CacheInv_shrink f); [exact Hinv|]. intros l. apply remove_steps_shrink, remove_hash_steps.
    + intros k. apply entry_ok_frame with (U := c_all s) (f := f); [apply incl_tl, incl_refl| |exact (Hm k)].
      apply abs_idx_frame. intros l Hl. apply Hfr. intros <-. exact (index_not_content _ Hl (cpath_content hash _ _)).
    + apply (store_step hash f _ (held (c_stored s)) _ (c_all s) _ a d Hnc); [reflexivity|apply held_del_other| |intros l _; apply Hfr|exact Hst].
      rewrite held_del_same. exact Hgone.
  - (* full removal: every key of the bucket goes with the bucket file *)
    destruct H as (Hinv & Hm & Hst). destruct (remove_fully_gone f key _ _ Hinv (Hm key)) as (Hb & Hgone & Hfr).
    set (f' := snd (run (remove_fully hash key) f)) in *.
    split; [|split].
    + apply (CacheInv_shrink f); [exact Hinv|]. intros l. apply remove_steps_shrink, remove_fully_steps.
    + intros k. pose proof (path_eqb_eq (bucket_path hash k) (bucket_path hash key)) as Hq. unfold path_eqb in Hq.
      destruct (list_eqb bytes_eqb (bucket_path hash k) (bucket_path hash key)).
      * unfold entry_ok, abs_idx, bucket_bytes. rewrite (proj1 Hq eq_refl), Hb. reflexivity.
      * apply entry_ok_frame with (U := c_all s) (f := f); [apply incl_refl| |exact (Hm k)].
        apply remove_fully_other_keys; [intros Y; discriminate (proj2 Hq Y)|].
        intros e cp _ Hcp X. apply (bucket_not_content hash k). rewrite X. exact (content_path_content _ _ Hcp).
    + pose proof (Hm key) as Hk. destruct (c_map s key) as [[a d]|]; cbn [entry_ok] in Hk.
      * apply (store_step hash f _ (held (c_stored s)) _ (c_all s) _ a d Hnc); [|apply held_del_other|rewrite held_del_same; exact Hgone|exact Hfr|exact Hst].
        intros x. split; [auto|]. intros [<-|X]; [exact (proj1 Hk)|exact X].
      * intros a d Hin. rewrite Hfr; [exact (Hst a d Hin)| |exact I]. eexists _, _. reflexivity.
Qed.

Lemma c_all_grows s o : exists pre, c_all (c_step s o) = pre ++ c_all s.
Proof. destruct o; cbn [c_step c_all]; solve [exists []; reflexivity | eexists [_]; reflexivity]. Qed.
Lemma c_all_fold h s : exists pre, c_all (fold_left c_step h s) = pre ++ c_all s.
Proof.
  revert s. induction h as [|o h IH]; intros s; cbn [fold_left]; [exists []; reflexivity|].
  destruct (IH (c_step s o)) as [p1 E1]. destruct (c_all_grows s o) as [p2 E2]. exists (p1 ++ p2). rewrite E1, E2, app_assoc. reflexivity.
Qed.
Lemma NoColl_suffix W W' : NoColl hash (W ++ W') -> NoColl hash W'.
Proof. intros H a d a' d' H1 H2. apply H; apply in_or_app; right; assumption. Qed.
Lemma NoColl_history h s : NoColl hash (c_all (fold_left c_step h s)) -> NoColl hash (c_all s).
Proof. destruct (c_all_fold h s) as [pre ->]. apply NoColl_suffix. Qed.

Theorem chistory_refines (h : list cop) f0 s0 :
  CInv f0 s0 -> forallb c_ok h = true -> NoColl hash (c_all (fold_left c_step h s0)) ->
  CInv (fold_left c_run h f0) (fold_left c_step h s0).
Proof.
  revert f0 s0. induction h as [|o h IH]; intros f0 s0 H0 Hok Hnc; cbn [fold_left] in *; [exact H0|].
  cbn [forallb] in Hok. apply andb_true_iff in Hok as [Hok1 Hok2].
  apply IH; [|exact Hok2|exact Hnc]. apply cinv_step; [exact H0|exact Hok1|exact (NoColl_history h _ Hnc)].
Qed.

(* what the invariant means for a caller: every read by key and by address *)
Theorem cinv_reads f s :
  CInv f s ->
  (forall k, run (read hash k) f = (c_read s k, f)) /\
  (forall a d, In (a, d) (c_all s) ->
     run (read_hash hash (sri_of hash a d)) f = (if memb (a, d) (c_stored s) then Ok d else Err EIoErr, f)).
Proof.
  intros (Hinv & Hm & Hst).
  assert (forall a d, In (a, d) (c_all s) ->
     run (read_hash hash (sri_of hash a d)) f = (if memb (a, d) (c_stored s) then Ok d else Err EIoErr, f)) as Haddr.
  { intros a d Hin. specialize (Hst a d Hin). destruct (memb (a, d) (c_stored s)).
    - apply (read_hash_stored hash HL). exact Hst.
    - apply read_hash_gone. exact Hst. }
  split; [|exact Haddr].
  intros k. unfold read, c_read. rewrite (by_key_entry hash (c_all s) f k _ _ (proj1 Hinv) (Hm k)). specialize (Hm k).
  destruct (c_map s k) as [[a d]|]; [exact (Haddr a d (proj1 Hm))|reflexivity].
Qed.

Lemma copy_stored f a d e :
  lookup f (InCache (cpath hash a d)) = Some (File d) -> lookup f (Ext e) <> Some Dir ->
  run (extract_hash hash XCopy true (sri_of hash a d) (Ext e)) f = (Ok (lenN d), update f (Ext e) (File d)).
Proof.
  intros H Hd. unfold extract_hash, with_cpath. rewrite (content_path_computed hash a d HL).
  unfold rbind. rewrite run_bind, verify_eq. unfold checked, check_res, resolve. rewrite H, sri_check_self.
  rewrite run_bind. unfold xstep. cbn [run]. unfold exec, resolve. rewrite H. cbn [parent_ok].
  destruct (lookup f (Ext e)) as [[x| |t]|]; try reflexivity. exfalso. apply Hd. reflexivity.
Qed.

Theorem cinv_copy f s k e :
  CInv f s -> lookup f (Ext e) <> Some Dir ->
  match c_map s k with
  | Some (a, d) => memb (a, d) (c_stored s) = true ->
                   run (extract hash XCopy true k (Ext e)) f = (Ok (lenN d), update f (Ext e) (File d))
  | None => run (extract hash XCopy true k (Ext e)) f = (Err ENotFound, f)
  end.
Proof.
  intros (Hinv & Hm & Hst) Hd. unfold extract. rewrite (by_key_entry hash (c_all s) f k _ _ (proj1 Hinv) (Hm k)). specialize (Hm k).
  destruct (c_map s k) as [[a d]|]; [|reflexivity]. intros Hmem. apply copy_stored; [|exact Hd].
  rewrite (Hst a d (proj1 Hm)), Hmem. reflexivity.
Qed.

Definition cspec0 : cspec := mkC (fun _ => None) [] [].
Lemma cinv_empty : CInv [] cspec0.
Proof. exact (inv_empty hash (fun _ => None)). Qed.

Corollary creads_from_empty (h : list cop) :
  forallb c_ok h = true -> NoColl hash (c_all (fold_left c_step h cspec0)) ->
  let f := fold_left c_run h [] in
  forall k, run (read hash k) f = (c_read (fold_left c_step h cspec0) k, f).
Proof. intros Hok Hnc f k. exact (proj1 (cinv_reads _ _ (chistory_refines h [] cspec0 cinv_empty Hok Hnc)) k). Qed.

End Hist2.
