(* ConcSerP.v — C07: serialisability of whole operations, writers / removers and observers, unbounded.  For any
   interleaving there is one sequential order of the writers / removers (that of their append steps) such that each returns
   what it returns alone, the final tree reads as the tree of their real sequential runs in that order ([serial]), and
   every observer answers as on the tree after the first n of them.  Proof: each observer remembers the ghost prefix at its
   step; the concurrent state at that prefix and the sequential run of that prefix both refine the key-value specification
   of HistP.  Readers by key alone are the special case of [serializable_mixed] for a pool whose results are tagged. *)
From CC Require Import Bytes Sri Record Fs Prog Api Conc BytesP FsP ProgP StepsP SriP IndexP WriteP CommitP RemoveP KeepP HistP MetaP ConcIdxP ConcWriteP ConcReadP.
From Coq Require Import Permutation Lia.
Local Open Scope N_scope.

Definition pmap {A B} (w : A -> B) (p : prog A) : prog B := bind p (fun r => Ret (w r)).

Lemma pmap_do {A B} (w : A -> B) (p : prog A) c K :
  pmap w p = Do c K -> exists kk, p = Do c kk /\ forall r, K r = pmap w (kk r).
Proof.
  destruct p as [a|c0 kk]; cbn [pmap bind]; intros E; [discriminate|].
  injection E as Ec Ek. subst c0. exists kk. split; [reflexivity|]. intros r. rewrite <- Ek. reflexivity.
Qed.

Lemma pmap_one_step {A B} (w : A -> B) (p : prog A) c kk g c' K f :
  p = Do c kk -> (forall r, kk r = Ret (g r)) -> pmap w p = Do c' K ->
  c' = c /\ K (fst (exec c f)) = Ret (w (fst (run p f))).
Proof.
  intros E Hk Ed. rewrite (run_one_step p c kk g f E Hk). destruct (pmap_do w p c' K Ed) as [kk' [E' HK]].
  rewrite E in E'. injection E' as Ec Ek. subst c' kk'. split; [reflexivity|]. rewrite HK, Hk. reflexivity.
Qed.

Lemma pstep_pmap {A B} (w : A -> B) rl rl' f f' :
  pstep (rl, f) (rl', f') -> pstep (map (pmap w) rl, f) (map (pmap w) rl', f').
Proof.
  intros H. inversion H as [pre c k post f1]. rewrite !map_app. cbn [map].
  exact (PStep (map (pmap w) pre) c (fun r => pmap w (k r)) (map (pmap w) post) f).
Qed.

Definition omap {A B C} (w : B -> C) (st : pool A * pool B * fs) : pool A * pool C * fs :=
  let '(pl, rl, f) := st in (pl, map (pmap w) rl, f).

Lemma oreach_pmap {A B C} (w : B -> C) (st st' : pool A * pool B * fs) : oreach st st' -> oreach (omap w st) (omap w st').
Proof.
  intros H. induction H as [s|s1 s2 s3 Hs _ IH]; [apply ORefl|]. apply (OTrans _ (omap w s2)); [|exact IH].
  destruct Hs as [pl pl' rl f f' Hp|pl rl rl' f f' Hp]; [exact (OL _ _ _ _ _ Hp)|exact (OR _ _ _ _ _ (pstep_pmap w _ _ _ _ Hp))].
Qed.

Lemma oreach_length {A B} (st st' : pool A * pool B * fs) :
  oreach st st' -> List.length (snd (fst st')) = List.length (snd (fst st)).
Proof.
  intros H. induction H as [s|s1 s2 s3 Hs _ IH]; [reflexivity|]. rewrite IH.
  destruct Hs as [pl pl' rl f f' Hp|pl rl rl' f f' Hp]; [reflexivity|]. inversion Hp. cbn [fst snd]. rewrite !app_length. reflexivity.
Qed.

Section CS.
Variable hash : algo -> bytes -> bytes.
Hypothesis HL : HashLen hash.

(* the operation of a thread as a step of the sequential key-value history of HistP *)
Definition kv_of (x : wspec) : kvop :=
  if ws_rm x then KRemove (ws_key x) (ws_now x) else KWrite Sync (ws_a x) (ws_key x) (ws_data x) (ws_now x).

(* the threads' programs one after the other (real runs of [write] / [delete]) *)
Definition serial (f0 : fs) (xs : list wspec) : fs := fold_left (kv_run hash) (map kv_of xs) f0.

Definition sel (ws : list wspec) (done : list nat) : list wspec := map (fun i => nth i ws dw) done.

Lemma hops_sel ws done : (forall i, In i done -> (i < List.length ws)%nat) ->
  hops_of (map (x_hop hash) ws) done = map (x_hop hash) (sel ws done).
Proof. intros Hlt. rewrite (hops_of_nth hash ws done Hlt). unfold sel. rewrite map_map. reflexivity. Qed.

Definition Rel (E : bytes -> option meta) (M : kv) : Prop :=
  forall k, match M k with
            | Some (a, d) => exists e, E k = Some e /\ m_sri e = sri_of hash a d
            | None => E k = None
            end.

Lemma rel_step E M x : Rel E M -> Rel (spec_step E (x_hop hash x)) (kv_step M (kv_of x)).
Proof.
  intros H k. unfold x_hop, kv_of. destruct (ws_rm x); cbn [spec_step kv_step]; destruct (bytes_eqb k (ws_key x)); try exact (H k).
  - reflexivity.
  - cbn. eexists. split; reflexivity.
Qed.

Lemma rel_fold xs : forall E M, Rel E M ->
  Rel (fold_left spec_step (map (x_hop hash) xs) E) (fold_left kv_step (map kv_of xs) M).
Proof. induction xs as [|x xs IH]; intros E M H; [exact H|]. cbn [map fold_left]. apply IH. apply rel_step. exact H. Qed.

Lemma kv_fold_prov xs : forall (M : kv) k a d,
  fold_left kv_step (map kv_of xs) M k = Some (a, d) ->
  M k = Some (a, d) \/ exists x, In x xs /\ ws_rm x = false /\ a = ws_a x /\ d = ws_data x.
Proof.
  induction xs as [|x xs IH]; intros M k a d H; [left; exact H|].
  cbn [map fold_left] in H. destruct (IH _ _ _ _ H) as [H1|[y [Hy R]]].
  - unfold kv_step, kv_of in H1. destruct (ws_rm x) eqn:Erm; destruct (bytes_eqb k (ws_key x)).
    + discriminate.
    + left. exact H1.
    + inversion H1; subst a d. right. exists x. split; [left; reflexivity|auto].
    + left. exact H1.
  - right. exists y. split; [right; exact Hy|exact R].
Qed.

Definition CM (f0 f1 : fs) : Prop := cmono f0 f1 /\ (NoSymC f0 -> NoSymC f1).
Definition GS (ws : list wspec) (f0 : fs) (done : list nat) (f1 : fs) : Prop :=
  exists pl1, PInvWd hash ws f0 done (pl1, f1) /\ CProv hash ws f0 f1 /\ CM f0 f1.

Section Pool.
Variable ws : list wspec.
Variable f0 : fs.
Variable m0 : kv.
Variable W0 : list (algo * bytes).
Hypothesis H0 : HInv hash f0 m0 W0.
Hypothesis Hc0 : coll0 hash ws f0.
Hypothesis Hok : forallb (kv_ok hash) (map kv_of ws) = true.
Hypothesis Hnc : NoColl hash (W0 ++ written (map kv_of ws)).

Lemma in_written x : In x ws -> ws_rm x = false -> In (ws_a x, ws_data x) (written (map kv_of ws)).
Proof.
  intros Hin Hrm. unfold written. apply in_flat_map. exists (kv_of x). split; [apply in_map; exact Hin|].
  unfold kv_of. rewrite Hrm. left. reflexivity.
Qed.

Lemma Hcf : coll_free hash ws.
Proof.
  intros x y Hx Hy Hwx Hwy E. unfold x_cp in E.
  apply (Hnc (ws_a x) (ws_data x) (ws_a y) (ws_data y)); [| |exact E]; apply in_or_app; right; apply in_written; assumption.
Qed.

Lemma Hwf : Forall (fun x => wf_rec hash (hop_rec (x_hop hash x))) ws.
Proof.
  apply Forall_forall. intros x Hx. rewrite forallb_forall in Hok. specialize (Hok (kv_of x) (in_map kv_of ws x Hx)).
  unfold kv_of, kv_ok in Hok. unfold x_hop, hop_rec. destruct (ws_rm x); exact (opts_ok_wf_rec hash _ _ _ Hok).
Qed.

Lemma kv_ok_sub xs : (forall x, In x xs -> In x ws) -> forallb (kv_ok hash) (map kv_of xs) = true.
Proof.
  intros Hsub. apply forallb_forall. intros o Ho. apply in_map_iff in Ho as [x [<- Hx]].
  rewrite forallb_forall in Hok. apply Hok. apply in_map. apply Hsub. exact Hx.
Qed.

Lemma Hinv0 : CacheInv f0.
Proof. exact (proj1 H0). Qed.

Lemma Hb0 : Backed hash f0.
Proof.
  intros k m Hk. destruct H0 as [_ [Hm Hst]]. specialize (Hm k). destruct (m0 k) as [[a d]|]; [|congruence].
  destruct Hm as [Hin [e [He Hs]]]. assert (e = m) by congruence. subst e.
  exists (cpath hash a d), d. rewrite Hs. split; [apply content_path_computed; exact HL|]. split; [exact (Hst a d Hin)|].
  unfold check_res. rewrite sri_check_self. reflexivity.
Qed.

Lemma rel0 : Rel (abs_idx hash f0) m0.
Proof.
  intros k. destruct H0 as [_ [Hm _]]. specialize (Hm k). destruct (m0 k) as [[a d]|]; [|exact Hm].
  destruct Hm as [_ Hex]. exact Hex.
Qed.

Lemma gs_facts d f1 : GS ws f0 d f1 -> IndexInv f1 /\ Backed hash f1.
Proof.
  intros [pl1 [Hi [Hp [Hm _]]]]. split.
  - exact (proj1 (proj1 (PInvWd_index hash HL ws f0 d pl1 f1 (proj1 Hinv0) Hwf Hi))).
  - apply (backed_reach hash HL ws f0 pl1 f1 (proj1 Hinv0) Hb0 Hwf); [exists d; exact Hi|exact Hm].
Qed.

Lemma gs_lt d f1 : GS ws f0 d f1 -> forall i, In i d -> (i < List.length ws)%nat.
Proof. intros [pl1 [[owns [_ [Hlt _]]] _]]. exact Hlt. Qed.

Lemma gs_sel_in d f1 : GS ws f0 d f1 -> forall x, In x (sel ws d) -> In x ws.
Proof. intros Hg x Hx. apply in_map_iff in Hx as [i [<- Hin]]. apply nth_In. exact (gs_lt d f1 Hg i Hin). Qed.

Theorem atomic_read_spec done f1 k :
  GS ws f0 done f1 ->
  run (read hash k) f1 =
  (match fold_left kv_step (map kv_of (sel ws done)) m0 k with Some (a, d) => Ok d | None => Err ENotFound end, f1).
Proof.
  intros Hg. pose proof Hg as [pl1 [Hi [_ [Hm _]]]].
  destruct (PInvWd_index hash HL ws f0 done pl1 f1 (proj1 Hinv0) Hwf Hi) as [[Hidx _] [Hdone Habs]].
  pose proof (rel_fold (sel ws done) _ _ rel0 k) as HR.
  rewrite <- (hops_sel ws done (gs_lt done f1 Hg)), <- Habs in HR.
  destruct (fold_left kv_step (map kv_of (sel ws done)) m0 k) as [[a d]|] eqn:EM.
  - destruct HR as [e [He Hs]]. rewrite (read_by_key hash f1 k e Hidx He), Hs. apply (read_hash_stored hash HL).
    destruct (kv_fold_prov _ _ _ _ _ EM) as [Hm0|[x [Hx [Hrm [-> ->]]]]].
    + destruct H0 as [_ [Hm' Hst]]. specialize (Hm' k). rewrite Hm0 in Hm'. destruct Hm' as [Hin _].
      exact (Hm _ _ (cpath_content hash a d) (Hst a d Hin)).
    + unfold sel in Hx. apply in_map_iff in Hx as [i [<- Hin]]. exact (proj2 (Hdone i Hin) Hrm).
  - unfold read, by_key, rbind. rewrite run_bind, (find_run hash f1 k Hidx), HR. reflexivity.
Qed.

Lemma NoColl_sub xs : (forall x, In x xs -> In x ws) -> NoColl hash (W0 ++ written (map kv_of xs)).
Proof.
  intros Hsub.
  assert (forall p, In p (W0 ++ written (map kv_of xs)) -> In p (W0 ++ written (map kv_of ws))) as Hin.
  { intros p H. apply in_app_or in H as [H|H]; apply in_or_app; [left; exact H|right].
    unfold written in *. apply in_flat_map in H as [o [Ho Hp]]. apply in_map_iff in Ho as [x [<- Hx]].
    apply in_flat_map. exists (kv_of x). split; [apply in_map; apply Hsub; exact Hx|exact Hp]. }
  intros a d a' d' H1 H2. exact (Hnc a d a' d' (Hin _ H1) (Hin _ H2)).
Qed.

(* the sequential run of any list of the threads' operations refines the same specification *)
Theorem serial_read_spec xs k :
  (forall x, In x xs -> In x ws) ->
  run (read hash k) (serial f0 xs) =
  (match fold_left kv_step (map kv_of xs) m0 k with Some (a, d) => Ok d | None => Err ENotFound end, serial f0 xs).
Proof.
  intros Hsub.
  pose proof (history_refines hash HL (map kv_of xs) f0 m0 W0 H0 (kv_ok_sub xs Hsub) (NoColl_sub xs Hsub)) as Hh.
  exact (proj1 (hinv_reads hash HL _ _ _ Hh) k).
Qed.

(* observers of four kinds in one pool: read by key (two steps); metadata / index lookup, read by address, existence test
   (one step each) *)
Inductive rop := RRead (k : bytes) | RMeta (k : bytes) | RHash (a : algo) (d : bytes) | RExists (a : algo) (d : bytes).
Inductive robs := OBytes (r : res bytes) | OMeta (r : res (option meta)) | OBool (r : res bool).
Definition wrapB (r : res bytes) : prog robs := Ret (OBytes r).
Definition wrapM (r : res (option meta)) : prog robs := Ret (OMeta r).
Definition wrapL (r : res bool) : prog robs := Ret (OBool r).
Definition rprog (op : rop) : prog robs :=
  match op with
  | RRead k => bind (read hash k) wrapB
  | RMeta k => bind (find hash k) wrapM
  | RHash a d => bind (read_hash hash (sri_of hash a d)) wrapB          (* read by the address of some data *)
  | RExists a d => bind (exists_hash (sri_of hash a d)) wrapL
  end.
Definition ranswer (op : rop) (f : fs) : robs :=
  match op with
  | RRead k => OBytes (fst (run (read hash k) f))
  | RMeta k => OMeta (fst (run (find hash k) f))
  | RHash a d => OBytes (fst (run (read_hash hash (sri_of hash a d)) f))
  | RExists a d => OBool (fst (run (exists_hash (sri_of hash a d)) f))
  end.

Lemma hash_head a d :
  exists kk, read_hash hash (sri_of hash a d) = Do (ReadFile (InCache (cpath hash a d))) kk /\
    forall r, kk r = Ret (rh_answer hash (sri_of hash a d) r).
Proof. exact (read_hash_head hash (sri_of hash a d) (cpath hash a d) (content_path_computed hash a d HL)). Qed.

Lemma exists_head a d :
  exists kk g, exists_hash (sri_of hash a d) = Do (Exists (InCache (cpath hash a d))) kk /\ forall r, kk r = Ret (g r).
Proof.
  unfold exists_hash, with_cpath. rewrite (content_path_computed hash a d HL).
  eexists. exists (fun r => match r with RBool b => Ok b | _ => Stuck end). split; [reflexivity|].
  intros r. destruct r; reflexivity.
Qed.

Lemma find_head k :
  exists kk g, find hash k = Do (ReadFile (InCache (bucket_path hash k))) kk /\ forall r, kk r = Ret (g r).
Proof.
  eexists. exists (fun r => match r with RBytes d => Ok (find_in k (entries hash d)) | RErr ENOENT => Ok (find_in k []) | RErr _ => Err EIoErr | _ => Stuck end).
  split; [reflexivity|]. intros r. destruct r as [|d| | | | |e]; try reflexivity. destruct e; reflexivity.
Qed.

(* the trees an observer may have looked at when the ghost order is [done]: those of the states at its prefixes *)
Definition snapd (done : list nat) (f1 : fs) : Prop :=
  exists n, (n <= List.length done)%nat /\ GS ws f0 (firstn n done) f1.

Lemma snapd_facts done f1 : snapd done f1 -> IndexInv f1 /\ Backed hash f1.
Proof. intros [n [_ Hg]]. exact (gs_facts _ f1 Hg). Qed.

Lemma snapd_now done f : GS ws f0 done f -> snapd done f.
Proof. intros Hg. exists (List.length done). split; [lia|rewrite firstn_all; exact Hg]. Qed.

Lemma snapd_grow done ext f1 : snapd done f1 -> snapd (done ++ ext) f1.
Proof.
  intros [n [Hn Hg]]. exists n. split; [rewrite app_length; lia|].
  rewrite firstn_app, (proj2 (Nat.sub_0_le n _) Hn), firstn_O, app_nil_r. exact Hg.
Qed.

(* the writers' side: the pool invariant with its ghost order, and what it has kept of the initial content area *)
Definition Wd (done : list nat) (s : pool (res integrity) * fs) : Prop :=
  PInvWd hash ws f0 done s /\ CProv hash ws f0 (snd s) /\ CM f0 (snd s).

Lemma Wd_init : Wd [] (map (wprog hash) ws, f0).
Proof.
  split; [exact (PInvWd_init hash ws f0 Hinv0)|]. split; [apply cprov_init|]. split; [apply cmono_refl|intros H; exact H].
Qed.

(* a reader by key is the reader of ConcReadP with its result tagged; the other three take one step *)
Inductive ost (op : rop) (done : list nat) (f : fs) : prog robs -> Prop :=
| S0 : ost op done f (rprog op)
| S1 k r : op = RRead k -> rst hash snapd k done f r -> ost op done f (pmap OBytes r)
| S2 f1 : snapd done f1 -> ost op done f (Ret (ranswer op f1)).

Lemma ost_grow op done ext f f' r : ost op done f r -> cmono f f' -> ost op (done ++ ext) f' r.
Proof.
  intros H Hm. destruct H as [|k r Eo Hr|f1 H1].
  - apply S0.
  - apply (S1 op (done ++ ext) f' k r Eo). exact (rst_grow hash snapd k done (done ++ ext) f f' r (snapd_grow done ext) Hm Hr).
  - apply S2. exact (snapd_grow done ext f1 H1).
Qed.

Lemma ost_reader_step k r done f c K :
  snapd done f -> rst hash snapd k done f r -> pmap OBytes r = Do c K ->
  snd (exec c f) = f /\ ost (RRead k) done f (K (fst (exec c f))).
Proof.
  intros Hnow Hr E. destruct (pmap_do OBytes r c K E) as [kk [-> HK]].
  destruct (rst_read_step hash snapd snapd_facts k done f c kk Hnow Hr) as [Hsame Hnew].
  split; [exact Hsame|]. rewrite HK. exact (S1 (RRead k) done f k _ eq_refl Hnew).
Qed.

Lemma ost_step done pl f op c K :
  Wd done (pl, f) -> ost op done f (Do c K) -> snd (exec c f) = f /\ ost op done f (K (fst (exec c f))).
Proof.
  intros Hw H. pose proof (snapd_now done f (ex_intro _ pl Hw)) as Hnow.
  remember (Do c K) as p eqn:Ep. destruct H as [|k r Eo Hr|f1 H1].
  - destruct op as [k|k|a d|a d].
    + exact (ost_reader_step k (read hash k) done f c K Hnow (R0 hash snapd k done f) Ep).
    + destruct (find_head k) as [kk [g [E Hk]]]. destruct (pmap_one_step OMeta _ _ kk g c K f E Hk Ep) as [-> ->].
      split; [exact (proj1 (read_step_exec (ReadFile _) f I))|]. exact (S2 (RMeta k) done f f Hnow).
    + destruct (hash_head a d) as [kk [E Hk]]. destruct (pmap_one_step OBytes _ _ kk _ c K f E Hk Ep) as [-> ->].
      split; [exact (proj1 (read_step_exec (ReadFile _) f I))|]. exact (S2 (RHash a d) done f f Hnow).
    + destruct (exists_head a d) as [kk [g [E Hk]]]. destruct (pmap_one_step OBool _ _ kk g c K f E Hk Ep) as [-> ->].
      split; [reflexivity|]. exact (S2 (RExists a d) done f f Hnow).
  - subst op. exact (ost_reader_step k r done f c K Hnow Hr Ep).
  - discriminate.
Qed.

Lemma ost_ret op done f a : ost op done f (Ret a) -> exists f1, snapd done f1 /\ a = ranswer op f1.
Proof.
  intros H. remember (Ret a) as p eqn:Ep. destruct H as [|k r Eo Hr|f1 H1].
  - exfalso. destruct op as [k|k|a0 d0|a0 d0]; unfold rprog in Ep; try discriminate Ep.
    + destruct (hash_head a0 d0) as [k1 [E _]]. rewrite E in Ep. discriminate.
    + destruct (exists_head a0 d0) as [k1 [g [E _]]]. rewrite E in Ep. discriminate.
  - subst op. destruct r as [a0|c0 k0]; [|discriminate]. injection Ep as <-.
    destruct (rst_ret hash snapd snapd_facts k done f a0 Hr) as [f1 [H1 ->]]. exists f1. split; [exact H1|reflexivity].
  - injection Ep as <-. exists f1. split; [exact H1|reflexivity].
Qed.

Lemma Wd_step done pl f pl' f' : Wd done (pl, f) -> pstep (pl, f) (pl', f') ->
  exists done', Wd done' (pl', f') /\ forall op r, ost op done f r -> ost op done' f' r.
Proof.
  intros [Hi [Hpv [Hm Hns]]] Hp. cbn [snd] in Hpv, Hm, Hns.
  destruct (PInvWd_step hash HL ws f0 done _ _ Hcf Hwf Hi Hp) as [ext Hi'].
  destruct (cprov_step hash ws f0 pl f pl' f' Hcf Hc0 (ex_intro _ done Hi) Hpv Hp) as [Hpv' Hm'].
  exists (done ++ ext). split.
  - split; [exact Hi'|]. split; [exact Hpv'|]. split; [exact (cmono_trans _ _ _ Hm Hm')|].
    intros Hn0. exact (nosym_step hash ws f0 pl f pl' f' (ex_intro _ done Hi) (Hns Hn0) Hp).
  - intros op r H. exact (ost_grow op done ext f f' r H Hm').
Qed.

Lemma kv_step_abs f x :
  CacheInv f -> kv_ok hash (kv_of x) = true ->
  CacheInv (kv_run hash f (kv_of x)) /\
  forall k, abs_idx hash (kv_run hash f (kv_of x)) k = spec_step (abs_idx hash f) (x_hop hash x) k.
Proof.
  intros Hinv Hk. unfold kv_of, x_hop in *. destruct (ws_rm x); cbn [kv_run kv_ok spec_step] in *.
  - pose proof (opts_ok_wf_rec hash _ _ _ Hk) as Hw.
    destruct (remove_scope hash f (ws_key x) (ws_now x) (proj1 Hinv) Hw) as [_ [Hi' [Habs [Hfr _]]]].
    split; [|intros k; rewrite Habs; reflexivity].
    apply (CacheInv_index_frame f _ Hinv Hi'). intros l Hl. apply Hfr. intros p ->. apply Hl. exists p. reflexivity.
  - pose proof (opts_ok_wf_rec hash _ _ _ Hk) as Hw.
    destruct (write_roundtrip hash HL f Sync (ws_a x) (ws_key x) (ws_data x) (ws_now x) Hinv Hw) as (_ & Hinv' & _ & _ & Hfr & m & Hm & M1 & M2 & M3 & M4 & M5 & M6).
    split; [exact Hinv'|]. intros k. destruct (bytes_eqb k (ws_key x)) eqn:Ek.
    + apply bytes_eqb_eq in Ek. subst k.
      assert (abs_idx hash (snd (run (write hash Sync (ws_a x) (ws_key x) (ws_data x) (ws_now x)) f)) (ws_key x) = Some m) as Hkey.
      { pose proof (find_run hash _ (ws_key x) (proj1 Hinv')) as E. rewrite Hm in E. congruence. }
      rewrite Hkey. unfold new_entry, x_o', x_sri. cbn [o_sri o_time o_size o_meta o_raw]. f_equal.
      destruct m as [mk ms mt mz mm mr]. cbn in M1, M2, M3, M4, M5, M6. subst. reflexivity.
    + apply bytes_eqb_neq in Ek. exact (Hfr k Ek).
Qed.

Lemma serial_abs_idx xs : forall f,
  CacheInv f -> forallb (kv_ok hash) (map kv_of xs) = true ->
  CacheInv (serial f xs) /\
  forall k, abs_idx hash (serial f xs) k = fold_left spec_step (map (x_hop hash) xs) (abs_idx hash f) k.
Proof.
  induction xs as [|x xs IH]; intros f Hinv Hk; [split; [exact Hinv|reflexivity]|].
  cbn [map forallb] in Hk. apply andb_true_iff in Hk as [Hk1 Hk2].
  unfold serial. cbn [map fold_left]. fold (serial (kv_run hash f (kv_of x)) xs).
  destruct (kv_step_abs f x Hinv Hk1) as [Hinv' Habs].
  destruct (IH (kv_run hash f (kv_of x)) Hinv' Hk2) as [Hc E]. split; [exact Hc|]. intros k. rewrite E.
  apply spec_steps_ext. exact Habs.
Qed.

(* content observers: what is under an address after a sequential run *)
Definition writes_at (l : loc) (x : wspec) : bool := negb (ws_rm x) && loc_eqb (InCache (x_cp hash x)) l.
Fixpoint last_at (l : loc) (xs : list wspec) : option bytes :=
  match xs with
  | [] => None
  | x :: t => match last_at l t with Some dd => Some dd | None => if writes_at l x then Some (ws_data x) else None end
  end.

Lemma writes_at_spec l x : writes_at l x = true <-> ws_rm x = false /\ InCache (x_cp hash x) = l.
Proof. unfold writes_at. rewrite andb_true_iff, negb_true_iff, loc_eqb_eq. reflexivity. Qed.

Lemma last_at_some l xs dd :
  last_at l xs = Some dd -> exists z, In z xs /\ ws_rm z = false /\ InCache (x_cp hash z) = l /\ dd = ws_data z.
Proof.
  induction xs as [|x t IH]; cbn [last_at]; [discriminate|]. destruct (last_at l t) as [d1|] eqn:E.
  - intros H. inversion H; subst d1. destruct (IH eq_refl) as [z [Hz R]]. exists z. split; [right; exact Hz|exact R].
  - destruct (writes_at l x) eqn:Ew; [|discriminate]. intros H. inversion H. apply writes_at_spec in Ew as [Hr Hl].
    exists x. split; [left; reflexivity|]. split; [exact Hr|]. split; [exact Hl|reflexivity].
Qed.

Lemma last_at_hit l xs z : In z xs -> ws_rm z = false -> InCache (x_cp hash z) = l -> last_at l xs <> None.
Proof.
  intros Hin Hr Hl. assert (writes_at l z = true) as Hw by (apply writes_at_spec; split; [exact Hr|exact Hl]).
  induction xs as [|x t IH]; [destruct Hin|]. destruct Hin as [->|Hin]; cbn [last_at].
  - destruct (last_at l t); [discriminate|]. rewrite Hw. discriminate.
  - pose proof (IH Hin) as H. destruct (last_at l t); [discriminate|contradiction].
Qed.

Lemma kv_run_content f x l :
  CacheInv f -> kv_ok hash (kv_of x) = true -> cfile hash l ->
  lookup (kv_run hash f (kv_of x)) l = if writes_at l x then Some (File (ws_data x)) else lookup f l.
Proof.
  intros Hinv Hk Hl. unfold writes_at, kv_of in Hk |- *. destruct (ws_rm x) eqn:Erm; cbn [negb andb kv_run kv_ok] in Hk |- *.
  - pose proof (opts_ok_wf_rec hash _ _ _ Hk) as Hw.
    destruct (remove_scope hash f (ws_key x) (ws_now x) (proj1 Hinv) Hw) as [_ [_ [_ [Hfr _]]]].
    apply Hfr. intros p E. exact (index_not_content l (ex_intro _ p E) (cfile_content hash l Hl)).
  - pose proof (opts_ok_wf_rec hash _ _ _ Hk) as Hw.
    destruct (loc_eqb (InCache (x_cp hash x)) l) eqn:El.
    + apply loc_eqb_eq in El. subst l. exact (write_stored hash HL f Sync (ws_a x) (ws_key x) (ws_data x) (ws_now x) Hinv Hw).
    + unfold write. rewrite (oneshot_stream hash _ _ _ _ _ f Hinv).
      apply (stream_write_frame hash HL); [exact Hl|]. rewrite concat_oneshot. cbn [write_opts algo_of].
      intros E. assert (loc_eqb (InCache (x_cp hash x)) l = true) as R by (apply loc_eqb_eq; rewrite <- E; reflexivity). congruence.
Qed.

Lemma serial_content l xs : forall f,
  CacheInv f -> forallb (kv_ok hash) (map kv_of xs) = true -> cfile hash l ->
  lookup (serial f xs) l = match last_at l xs with Some dd => Some (File dd) | None => lookup f l end.
Proof.
  induction xs as [|x t IH]; intros f Hinv Hk Hl; [reflexivity|].
  cbn [map forallb] in Hk. apply andb_true_iff in Hk as [Hk1 Hk2].
  change (serial f (x :: t)) with (serial (kv_run hash f (kv_of x)) t).
  rewrite (IH _ (proj1 (kv_step_abs f x Hinv Hk1)) Hk2 Hl), (kv_run_content f x l Hinv Hk1 Hl). cbn [last_at].
  destruct (last_at l t); [reflexivity|]. destruct (writes_at l x); reflexivity.
Qed.

Definition content_op (op : rop) : Prop := match op with RHash _ _ | RExists _ _ => True | _ => False end.

Lemma content_obs op a d f g :
  op = RHash a d \/ op = RExists a d ->
  lookup f (InCache (cpath hash a d)) = lookup g (InCache (cpath hash a d)) ->
  (lookup f (InCache (cpath hash a d)) = None \/ exists d', lookup f (InCache (cpath hash a d)) = Some (File d')) ->
  ranswer op f = ranswer op g.
Proof.
  intros Hop E Hs.
  assert (resolve f (InCache (cpath hash a d)) = resolve g (InCache (cpath hash a d))) as Er.
  { unfold resolve. rewrite <- E. destruct Hs as [Hn|[d' Hd]]; [rewrite Hn|rewrite Hd]; reflexivity. }
  destruct Hop as [-> | ->]; unfold ranswer; f_equal.
  - destruct (hash_head a d) as [kk [Eh Hk]]. rewrite !(run_one_step _ _ kk _ _ Eh Hk). unfold exec. rewrite Er.
    destruct (resolve g (InCache (cpath hash a d))) as [[b| |t]|]; reflexivity.
  - destruct (exists_head a d) as [kk [g0 [Eh Hk]]]. rewrite !(run_one_step _ _ kk g0 _ Eh Hk). unfold exec. rewrite Er. reflexivity.
Qed.

Lemma cfile_node f a d :
  ContentShape f -> NoSymC f ->
  lookup f (InCache (cpath hash a d)) = None \/ exists b, lookup f (InCache (cpath hash a d)) = Some (File b).
Proof.
  intros Hcs Hns. destruct (lookup f (InCache (cpath hash a d))) as [[b| |t]|] eqn:E; [right; eauto| | |left; reflexivity]; exfalso.
  - exact (proj2 (Hcs _ _ E) eq_refl eq_refl).
  - exact (Hns _ _ E).
Qed.

Lemma content_serial a d d1 f1 perm :
  NoSymC f0 -> GS ws f0 d1 f1 -> Permutation perm ws ->
  (exists d', lookup f1 (InCache (cpath hash a d)) = Some (File d') /\ lookup (serial f0 perm) (InCache (cpath hash a d)) = Some (File d')) \/
  (lookup f1 (InCache (cpath hash a d)) = None /\ lookup (serial f0 (sel ws d1)) (InCache (cpath hash a d)) = None).
Proof.
  intros Hns Hg1 Hperm. pose proof Hg1 as [pl1 [Hi1 [Hp1 [Hm1 Hn1]]]].
  destruct (PInvWd_index hash HL ws f0 d1 pl1 f1 (proj1 Hinv0) Hwf Hi1) as [(_ & Hcs1 & _) [Hdone _]].
  destruct (cfile_node f1 a d Hcs1 (Hn1 Hns)) as [E1|[d' E1]]; set (l := InCache (cpath hash a d)) in *.
  - (* not there: no thread of the prefix has published it, and it was not there at the start *)
    right. split; [exact E1|].
    rewrite (serial_content l (sel ws d1) f0 Hinv0 (kv_ok_sub _ (gs_sel_in d1 f1 Hg1)) (ex_intro _ a (ex_intro _ d eq_refl))).
    destruct (last_at l (sel ws d1)) as [dd|] eqn:Ela.
    + exfalso. destruct (last_at_some l _ dd Ela) as [z [Hz [Hrz [Hlz _]]]].
      apply in_map_iff in Hz as [i [<- Hin]]. pose proof (proj2 (Hdone i Hin) Hrz) as Hc. rewrite Hlz in Hc. congruence.
    + destruct (cfile_node f0 a d (proj1 (proj2 Hinv0)) Hns) as [E0|[b E0]]; [exact E0|].
      pose proof (Hm1 l b (cpath_content hash a d) E0) as H. congruence.
  - (* there: the bytes of the initial cache or of a writer; whoever writes there last in the run writes the same *)
    left. exists d'. split; [exact E1|].
    rewrite (serial_content l perm f0 Hinv0 (kv_ok_sub perm (fun x Hx => Permutation_in _ Hperm Hx)) (ex_intro _ a (ex_intro _ d eq_refl))).
    destruct (Hp1 l d' (cpath_content hash a d) E1) as [H0f|[y [Hy [Hwy [El ->]]]]].
    + destruct (last_at l perm) as [dd|] eqn:Ela; [|exact H0f].
      destruct (last_at_some l perm dd Ela) as [z [Hz [Hrz [Hlz ->]]]].
      f_equal. f_equal. symmetry. apply (Hc0 z d' (Permutation_in _ Hperm Hz) Hrz). rewrite Hlz. exact H0f.
    + assert (In y perm) as Hyp by (apply (Permutation_in _ (Permutation_sym Hperm)); exact Hy).
      destruct (last_at l perm) as [dd|] eqn:Ela; [|exfalso; exact (last_at_hit l perm y Hyp Hwy (eq_sym El) Ela)].
      destruct (last_at_some l perm dd Ela) as [z [Hz [Hrz [Hlz ->]]]].
      f_equal. f_equal. apply (Hcf z y (Permutation_in _ Hperm Hz) Hy Hrz Hwy). congruence.
Qed.

(* what an observer sees at a ghost prefix [d] is what it sees after the sequential run of that prefix; a content observer
   may instead see what it sees after the run of all the threads, in any order *)
Lemma obs_serial op d f1 perm :
  (content_op op -> NoSymC f0) -> GS ws f0 d f1 -> Permutation perm ws ->
  ranswer op f1 = ranswer op (serial f0 (sel ws d)) \/ ranswer op f1 = ranswer op (serial f0 perm).
Proof.
  intros Hns Hg1 Hperm. pose proof (gs_sel_in d f1 Hg1) as Hsub.
  assert (forall a0 d0, op = RHash a0 d0 \/ op = RExists a0 d0 -> content_op op ->
            ranswer op f1 = ranswer op (serial f0 (sel ws d)) \/ ranswer op f1 = ranswer op (serial f0 perm)) as Hcont.
  { intros a0 d0 Hop Hco. destruct (content_serial a0 d0 d f1 perm (Hns Hco) Hg1 Hperm) as [[d' [E1 E2]]|[E1 E2]].
    - right. apply (content_obs op a0 d0 _ _ Hop); [congruence|right; exists d'; exact E1].
    - left. apply (content_obs op a0 d0 _ _ Hop); [congruence|left; exact E1]. }
  destruct op as [k|k|a0 d0|a0 d0];
    [left|left|exact (Hcont a0 d0 (or_introl eq_refl) I)|exact (Hcont a0 d0 (or_intror eq_refl) I)]; unfold ranswer; f_equal.
  - rewrite (atomic_read_spec d f1 k Hg1), (serial_read_spec (sel ws d) k Hsub). reflexivity.
  - pose proof Hg1 as [pl1 [Hi1 _]].
    destruct (PInvWd_index hash HL ws f0 d pl1 f1 (proj1 Hinv0) Hwf Hi1) as [[Hidx _] [_ Habs]].
    destruct (serial_abs_idx (sel ws d) f0 Hinv0 (kv_ok_sub _ Hsub)) as [Hcs Es].
    rewrite (find_run hash f1 k Hidx), (find_run hash _ k (proj1 Hcs)). cbn [fst]. f_equal.
    rewrite Habs, Es, (hops_sel ws d (gs_lt d f1 Hg1)). reflexivity.
Qed.

Theorem serializable_mixed ops pl' rl' f' rs :
  oreach (map (wprog hash) ws, map rprog ops, f0) (pl', rl', f') -> results pl' = Some rs ->
  exists perm,
    Permutation perm ws /\
    rs = map (fun x => Ok (x_res hash x)) ws /\
    (forall op, (content_op op -> NoSymC f0) -> ranswer op f' = ranswer op (serial f0 perm)) /\
    (forall j a, (j < List.length ops)%nat -> (content_op (nth j ops (RMeta [])) -> NoSymC f0) ->
       nth j rl' (Ret (OMeta Stuck)) = Ret a ->
       exists n, (n <= List.length perm)%nat /\ a = ranswer (nth j ops (RMeta [])) (serial f0 (firstn n perm))).
Proof.
  intros Hr Hres.
  destruct (OInv_reach Wd ost Wd_step ost_step ops _ _
              (OInv_init Wd ost [] _ f0 rprog ops Wd_init (fun op => S0 op [] f0)) Hr) as [done [Hw Hst]].
  destruct (PInvWd_finished hash ws f0 done pl' f' rs (proj1 Hw) Hres) as [Ers Hp].
  exists (sel ws done). split; [exact Hp|]. split; [exact Ers|]. split.
  - intros op Hns. destruct (obs_serial op done f' (sel ws done) Hns (ex_intro _ pl' Hw) Hp) as [E|E]; exact E.
  - intros j a Hj Hns Ha.
    pose proof (Forall2_nth _ ops rl' (RMeta []) (Ret (OMeta Stuck)) j Hst Hj) as H. cbn beta in H. rewrite Ha in H.
    destruct (ost_ret _ done f' a H) as [f1 [[n [Hn Hg1]] ->]].
    (* an observer that saw the tree at the ghost prefix of length [n] is placed there, or at the end *)
    destruct (obs_serial _ (firstn n done) f1 (sel ws done) Hns Hg1 Hp) as [E|E].
    + exists n. split; [unfold sel; rewrite map_length; exact Hn|]. unfold sel. rewrite firstn_map. exact E.
    + exists (List.length (sel ws done)). split; [lia|]. rewrite firstn_all. exact E.
Qed.

(* readers by key only: the pool of the readers, results tagged, is a pool of observers and makes the same steps *)
Theorem serializable_with_readers ks pl' rl' f' rs :
  oreach (map (wprog hash) ws, map (read hash) ks, f0) (pl', rl', f') -> results pl' = Some rs ->
  exists perm,
    Permutation perm ws /\
    rs = map (fun x => Ok (x_res hash x)) ws /\
    (forall k, fst (run (read hash k) f') = fst (run (read hash k) (serial f0 perm))) /\
    (forall j a, (j < List.length ks)%nat -> nth j rl' (Ret Stuck) = Ret a ->
       exists n, (n <= List.length perm)%nat /\ a = fst (run (read hash (nth j ks [])) (serial f0 (firstn n perm)))).
Proof.
  intros Hr Hres. pose proof (oreach_length _ _ Hr) as Hlen. cbn [fst snd] in Hlen. rewrite map_length in Hlen.
  pose proof (oreach_pmap OBytes _ _ Hr) as Hr'. cbn [omap] in Hr'. rewrite map_map in Hr'.
  change (map (fun k => pmap OBytes (read hash k)) ks) with (map (fun k => rprog (RRead k)) ks) in Hr'.
  rewrite <- (map_map RRead rprog) in Hr'.
  destruct (serializable_mixed _ _ _ _ rs Hr' Hres) as [perm [Hp [Ers [Hfin Hpos]]]].
  exists perm. split; [exact Hp|]. split; [exact Ers|]. split.
  - intros k. pose proof (Hfin (RRead k) (fun H => match H with end)) as E. injection E as E. exact E.
  - intros j a Hj Ha. rewrite map_length in Hpos.
    assert (nth j (map RRead ks) (RMeta []) = RRead (nth j ks [])) as Eop.
    { rewrite (nth_indep _ _ (RRead [])) by (rewrite map_length; exact Hj). apply (map_nth RRead). }
    assert (nth j (map (pmap OBytes) rl') (Ret (OMeta Stuck)) = Ret (OBytes a)) as Ha'.
    { rewrite (nth_indep _ _ (pmap OBytes (Ret Stuck))) by (rewrite map_length, Hlen; exact Hj).
      rewrite (map_nth (pmap OBytes)), Ha. reflexivity. }
    specialize (Hpos j (OBytes a) Hj). rewrite Eop in Hpos.
    destruct (Hpos (fun H => match H with end) Ha') as [n [Hn E]].
    exists n. split; [exact Hn|]. injection E as E. exact E.
Qed.

End Pool.
End CS.
