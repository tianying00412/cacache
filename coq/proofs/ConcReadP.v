(* ConcReadP.v — C07: readers among writers, any number of each, any interleaving.  In every reachable state of the
   writers' pool (ConcWriteP) a content file, once present, keeps its bytes, and every visible index entry is backed by its
   complete content; hence every reader ([read key]: one step on the bucket, one on the content file) answers as the same
   read executed atomically at the state in which its index step happened, whatever happens between its two steps.
   The invariant of two pools on one tree and the stages of a reader are stated over what they need; ConcSerP
   instantiates them with the ghost order of appends. *)
From CC Require Import Bytes Sri Record Fs Prog Api Conc FsP StepsP SriP IndexP WriteP CommitP ConcIdxP
  ConcWriteP.
From Coq Require Import Lia.
Local Open Scope N_scope.

Lemma Forall2_nth {A B} (P : A -> B -> Prop) l l' a b j :
  Forall2 P l l' -> (j < List.length l)%nat -> P (nth j l a) (nth j l' b).
Proof.
  intros H. revert j. induction H as [|x y l l' Hxy _ IH]; intros j Hj; [inversion Hj|].
  destruct j as [|j]; [exact Hxy|]. apply IH. cbn [List.length] in Hj. lia.
Qed.

Lemma Forall2_map_r {A B} (P : A -> B -> Prop) (g : A -> B) l : (forall x, P x (g x)) -> Forall2 P l (map g l).
Proof. intros H. induction l as [|x l IH]; constructor; [apply H|exact IH]. Qed.

Lemma Forall2_impl {A B} (P Q : A -> B -> Prop) l l' : (forall x y, P x y -> Q x y) -> Forall2 P l l' -> Forall2 Q l l'.
Proof. intros H HF. induction HF as [|x y l l' Hxy _ IH]; constructor; [exact (H x y Hxy)|exact IH]. Qed.

Lemma run_do {A} c (k : ret -> prog A) f : run (Do c k) f = run (k (fst (exec c f))) (snd (exec c f)).
Proof. cbn [run]. destruct (exec c f). reflexivity. Qed.

Lemma run_one_step {A} (p : prog A) c kk g f :
  p = Do c kk -> (forall r, kk r = Ret (g r)) -> fst (run p f) = g (fst (exec c f)).
Proof. intros -> Hk. rewrite run_do, Hk. reflexivity. Qed.

(* The writers' pool has an invariant [W] indexed by a ghost value; every thread [x] of the observers' pool has a predicate
   [R x] on its program, relative to the ghost and the tree.  If every step of the writers moves the ghost so that each [R]
   still holds, and a step of an observer leaves the tree alone and keeps its own [R], the pair is kept by [ostep]. *)
Section TwoPools.
Context {A B G X : Type}.
Variable W : G -> pool A * fs -> Prop.
Variable R : X -> G -> fs -> prog B -> Prop.
Hypothesis W_step : forall g pl f pl' f', W g (pl, f) -> pstep (pl, f) (pl', f') ->
  exists g', W g' (pl', f') /\ forall x r, R x g f r -> R x g' f' r.
Hypothesis R_step : forall g pl f x c k, W g (pl, f) -> R x g f (Do c k) ->
  snd (exec c f) = f /\ R x g f (k (fst (exec c f))).

Definition OInv (xs : list X) (st : pool A * pool B * fs) : Prop :=
  let '(pl, rl, f) := st in exists g, W g (pl, f) /\ Forall2 (fun x r => R x g f r) xs rl.

Lemma OInv_init g pl f (prg : X -> prog B) xs :
  W g (pl, f) -> (forall x, R x g f (prg x)) -> OInv xs (pl, map prg xs, f).
Proof. intros Hw Hr. exists g. split; [exact Hw|apply Forall2_map_r; exact Hr]. Qed.

Lemma OInv_step xs st st' : OInv xs st -> ostep st st' -> OInv xs st'.
Proof.
  intros Hinv Hs. destruct Hs as [pl pl' rl f f' Hp|pl rl rl' f f' Hp]; destruct Hinv as [g [Hw Hrl]].
  - destruct (W_step g pl f pl' f' Hw Hp) as [g' [Hw' Hgrow]]. exists g'. split; [exact Hw'|].
    exact (Forall2_impl _ _ xs rl Hgrow Hrl).
  - inversion Hp as [pre c k post f1 E1 E2]. subst rl f1 rl'.
    apply Forall2_app_inv_r in Hrl as [xs1 [xs2 [H1 [H2 ->]]]]. inversion H2 as [|x r xs2' post' Hx Hpost]. subst.
    destruct (R_step g pl f x c k Hw Hx) as [Hsame Hnew]. rewrite Hsame.
    exists g. split; [exact Hw|]. apply Forall2_app; [exact H1|constructor; [exact Hnew|exact Hpost]].
Qed.

Lemma OInv_reach xs st st' : OInv xs st -> oreach st st' -> OInv xs st'.
Proof. intros Hi Hr. induction Hr as [s|s1 s2 s3 Hs _ IH]; [exact Hi|]. exact (IH (OInv_step xs _ _ Hi Hs)). Qed.

End TwoPools.

Section CR.
Variable hash : algo -> bytes -> bytes.
Hypothesis HL : HashLen hash.

Lemma preach_trans {A} (a b c : pool A * fs) : preach a b -> preach b c -> preach a c.
Proof. intros H. induction H as [s|s1 s2 s3 Hs _ IH]; intros Hc; [exact Hc|exact (PTrans _ _ _ Hs (IH Hc))]. Qed.

Lemma preach_snoc {A} (a b c : pool A * fs) : preach a b -> pstep b c -> preach a c.
Proof. intros H Hc. exact (preach_trans a b c H (PTrans _ _ _ Hc (PRefl _))). Qed.

Definition coll0 (ws : list wspec) (f0 : fs) : Prop :=
  forall x d, In x ws -> ws_rm x = false -> lookup f0 (InCache (x_cp hash x)) = Some (File d) -> d = ws_data x.

Definition CProv (ws : list wspec) (f0 f : fs) : Prop :=
  forall l d, is_content l -> lookup f l = Some (File d) ->
    lookup f0 l = Some (File d) \/ exists x, In x ws /\ ws_rm x = false /\ l = InCache (x_cp hash x) /\ d = ws_data x.

Definition cmono (f g : fs) : Prop := forall l d, is_content l -> lookup f l = Some (File d) -> lookup g l = Some (File d).

Lemma cmono_refl f : cmono f f.
Proof. intros l d _ H. exact H. Qed.
Lemma cmono_trans f g h : cmono f g -> cmono g h -> cmono f h.
Proof. intros H1 H2 l d Hl H. exact (H2 l d Hl (H1 l d Hl H)). Qed.

(* what one step of the pool does to a location of the content area: nothing, or a new directory, or it publishes there the
   complete data of a writer *)
Lemma step_effect ws f0 pl f pl' f' l :
  PInvW hash ws f0 (pl, f) -> pstep (pl, f) (pl', f') -> is_content l ->
  lookup f' l = lookup f l \/ (lookup f l = None /\ lookup f' l = Some Dir) \/
  exists x, In x ws /\ ws_rm x = false /\ l = InCache (x_cp hash x) /\ lookup f' l = Some (File (ws_data x)).
Proof.
  intros [done [owns Hinv]] Hstep Hl. inversion Hstep as [pre c k post f1 E1 E2]. subst pl f1 pl' f'. clear Hstep.
  pose proof Hinv as (_ & _ & _ & _ & _ & _ & _ & Hc & Ht & _).
  destruct (wst_step hash _ f c k _ _ Hc Ht (thread_stage hash ws f0 done owns pre _ post f Hinv)) as [(Hw & (_ & _ & Hq) & _)|[_ Hs]].
  - destruct (Hq l) as [E|[(E1 & E2 & _)|[(n & -> & _)|(E1 & _ & E2)]]]; [left; exact E|right; left; auto|destruct (tmp_loc_not_content n Hl)|].
    right. right. exists (nth (List.length pre) ws dw). split; [apply nth_In; exact (thread_in hash ws f0 done owns pre _ post f Hinv)|auto].
  - left. apply (idx_frame hash f _ c (stage_index_step hash _ _ _ _ _ _ Hs)). intros Hi. exact (index_not_content l Hi Hl).
Qed.

Lemma cprov_step ws f0 pl f pl' f' :
  coll_free hash ws -> coll0 ws f0 ->
  PInvW hash ws f0 (pl, f) -> CProv ws f0 f -> pstep (pl, f) (pl', f') ->
  CProv ws f0 f' /\ cmono f f'.
Proof.
  intros Hcf Hc0 Hinv Hp Hstep.
  split; intros l d Hl H; destruct (step_effect ws f0 pl f pl' f' l Hinv Hstep Hl) as [E|[[E1 E2]|(x & Hx & Hw & -> & E)]].
  - rewrite E in H. exact (Hp l d Hl H).
  - congruence.
  - right. exists x. rewrite E in H. injection H as <-. auto.
  - rewrite E. exact H.
  - congruence.
  - (* published over the same bytes: those of the initial cache, or of a writer with the same address *)
    rewrite E. f_equal. f_equal. destruct (Hp _ d Hl H) as [H0|(y & Hy & Hwy & E' & ->)].
    + symmetry. exact (Hc0 x d Hx Hw H0).
    + apply (Hcf x y Hx Hy Hw Hwy). congruence.
Qed.

Lemma cprov_reach ws f0 s s' :
  coll_free hash ws -> coll0 ws f0 -> Forall (fun x => wf_rec hash (hop_rec (x_hop hash x))) ws ->
  PInvW hash ws f0 s -> CProv ws f0 (snd s) -> preach s s' ->
  PInvW hash ws f0 s' /\ CProv ws f0 (snd s') /\ cmono (snd s) (snd s').
Proof.
  intros Hcf Hc0 Hwf Hinv Hp Hr. induction Hr as [s|s1 s2 s3 Hs _ IH].
  - split; [exact Hinv|split; [exact Hp|apply cmono_refl]].
  - destruct s1 as [pl1 f1], s2 as [pl2 f2].
    destruct (cprov_step ws f0 pl1 f1 pl2 f2 Hcf Hc0 Hinv Hp Hs) as [Hp2 Hm].
    destruct (IH (PInvW_step hash HL ws f0 _ _ Hcf Hwf Hinv Hs) Hp2) as [Hi3 [Hp3 Hm3]].
    split; [exact Hi3|split; [exact Hp3|exact (cmono_trans _ _ _ Hm Hm3)]].
Qed.

Lemma cprov_init ws f0 : CProv ws f0 f0.
Proof. intros l d _ H. left. exact H. Qed.

Lemma spec_fold_entry_key hs m k e :
  fold_left spec_step hs m k = Some e ->
  m k = Some e \/ exists key o now, In (HIns key o now) hs /\ bytes_eqb k key = true /\ new_entry key o now = Some e.
Proof.
  revert m. induction hs as [|h hs IH]; intros m H; [left; exact H|].
  cbn [fold_left] in H. destruct (IH _ H) as [H1|[key [o [now [Hin He]]]]].
  - unfold spec_step in H1. destruct h as [key o now|key now]; destruct (bytes_eqb k key) eqn:Ek.
    + right. exists key, o, now. split; [left; reflexivity|split; [exact Ek|exact H1]].
    + left. exact H1.
    + discriminate.
    + left. exact H1.
  - right. exists key, o, now. split; [right; exact Hin|exact He].
Qed.

(* an entry visible in a state of the pool is one of the initial tree, or that of a writer of the key which has appended
   its record: its data is then stored *)
Lemma visible_entry ws f0 done pl f k m :
  IndexInv f0 -> Forall (fun x => wf_rec hash (hop_rec (x_hop hash x))) ws -> PInvWd hash ws f0 done (pl, f) ->
  abs_idx hash f k = Some m ->
  abs_idx hash f0 k = Some m \/
  exists x, In x ws /\ ws_rm x = false /\ bytes_eqb k (ws_key x) = true /\ m_sri m = x_sri hash x /\
    lookup f (InCache (x_cp hash x)) = Some (File (ws_data x)).
Proof.
  intros Hinv0 Hwf Hinv Hk. destruct (PInvWd_index hash HL ws f0 done pl f Hinv0 Hwf Hinv) as (_ & Hdone & Hidx).
  rewrite Hidx in Hk. destruct (spec_fold_entry_key _ _ _ _ Hk) as [H0|(key & o & now & Hin & Hkey & He)]; [left; exact H0|right].
  rewrite (hops_of_nth hash ws done (fun i Hi => proj1 (Hdone i Hi))) in Hin. apply in_map_iff in Hin as (i & [= <- <- <-] & Hi).
  destruct (Hdone i Hi) as [Hlt Hc]. exists (nth i ws dw). split; [exact (nth_In ws dw Hlt)|].
  unfold new_entry in He. destruct (ws_rm (nth i ws dw)) eqn:Erm; [discriminate He|]. injection He as <-.
  split; [reflexivity|]. split; [exact Hkey|]. split; [reflexivity|exact (Hc Erm)].
Qed.

Definition Backed (f : fs) : Prop :=
  forall k m, abs_idx hash f k = Some m ->
    exists p d, content_path (m_sri m) = Some p /\ lookup f (InCache p) = Some (File d) /\ check_res hash (m_sri m) d = Ok tt.

Lemma backed_reach ws f0 pl f :
  IndexInv f0 -> Backed f0 -> Forall (fun x => wf_rec hash (hop_rec (x_hop hash x))) ws ->
  PInvW hash ws f0 (pl, f) -> cmono f0 f -> Backed f.
Proof.
  intros Hinv0 Hb0 Hwf [done Hinv] Hm k m Hk.
  destruct (visible_entry ws f0 done pl f k m Hinv0 Hwf Hinv Hk) as [H0|(x & _ & _ & _ & Es & Hx)].
  - destruct (Hb0 k m H0) as [p [d [Hp [Hl Hc]]]]. exists p, d. split; [exact Hp|]. split; [|exact Hc].
    apply Hm; [exact (content_path_content _ _ Hp)|exact Hl].
  - rewrite Es. exists (x_cp hash x), (ws_data x). split; [apply content_path_computed; exact HL|]. split; [exact Hx|].
    unfold check_res, x_sri. rewrite sri_check_self. reflexivity.
Qed.

(* the reader: one step on the bucket, one on the content file *)
Definition phase2 (k : bytes) (f1 : fs) : prog (res bytes) :=
  match abs_idx hash f1 k with Some m => read_hash hash (m_sri m) | None => Ret (Err ENotFound) end.

Lemma read_head k :
  exists kk, read hash k = Do (ReadFile (InCache (bucket_path hash k))) kk /\
    forall f, IndexInv f -> kk (fst (exec (ReadFile (InCache (bucket_path hash k))) f)) = phase2 k f.
Proof.
  eexists. split; [reflexivity|]. intros f Hinv. unfold phase2, abs_idx, bucket_bytes.
  destruct (bucket_lookup hash f k Hinv) as [Hn|[d [Hd _]]].
  - rewrite (exec_readfile_absent _ _ Hn), Hn. reflexivity.
  - rewrite (exec_readfile_file _ _ _ Hd), Hd. reflexivity.
Qed.

Lemma phase2_run k f : IndexInv f -> run (read hash k) f = run (phase2 k f) f.
Proof.
  intros Hinv. destruct (read_head k) as [kk [E Hk]]. rewrite E, run_do, (Hk f Hinv), (proj1 (read_step_exec (ReadFile _) f I)). reflexivity.
Qed.

Definition rh_answer (i : integrity) (r : ret) : res bytes :=
  match r with
  | RBytes d => match check_res hash i d with Ok _ => Ok d | other => lift_err other end
  | RErr _ => Err EIoErr
  | _ => Stuck
  end.

Lemma read_hash_head i p : content_path i = Some p ->
  exists kk, read_hash hash i = Do (ReadFile (InCache p)) kk /\ forall r, kk r = Ret (rh_answer i r).
Proof.
  intros Hp. unfold read_hash, with_cpath. rewrite Hp. eexists. split; [reflexivity|].
  intros r. unfold rh_answer, rbind, read_file. cbn [bind]. destruct r as [|d| | | | |]; try reflexivity. cbn [bind]. destruct (check_res hash i d); reflexivity.
Qed.

(* where a reader of [k] can be.  [Snap g] are the trees in which it may have taken its index step, given the ghost [g] of
   the writers; all the argument needs of such a tree is a sound index whose entries are backed, and that content files
   are kept from then on. *)
Section Reader.
Context {G : Type}.
Variable Snap : G -> fs -> Prop.
Hypothesis snap_ok : forall g f1, Snap g f1 -> IndexInv f1 /\ Backed f1.

Inductive rst (k : bytes) (g : G) (f : fs) : prog (res bytes) -> Prop :=
| R0 : rst k g f (read hash k)
| R1 f1 : Snap g f1 -> cmono f1 f -> rst k g f (phase2 k f1)
| R2 f1 : Snap g f1 -> rst k g f (Ret (fst (run (read hash k) f1))).

Lemma rst_grow k g g' f f' r : (forall f1, Snap g f1 -> Snap g' f1) -> cmono f f' -> rst k g f r -> rst k g' f' r.
Proof.
  intros Hg Hm H. destruct H as [|f1 H1 Hm1|f1 H1].
  - apply R0.
  - exact (R1 k g' f' f1 (Hg f1 H1) (cmono_trans _ _ _ Hm1 Hm)).
  - exact (R2 k g' f' f1 (Hg f1 H1)).
Qed.

Lemma rst_read_step k g f c kk :
  Snap g f -> rst k g f (Do c kk) -> snd (exec c f) = f /\ rst k g f (kk (fst (exec c f))).
Proof.
  intros Hf H. remember (Do c kk) as r eqn:Er. destruct H as [|f1 H1 Hm1|f1 H1].
  - destruct (read_head k) as [k1 [E Hk]]. rewrite E in Er. injection Er as Ec Ek. subst c kk.
    split; [exact (proj1 (read_step_exec (ReadFile _) f I))|]. rewrite (Hk f (proj1 (snap_ok g f Hf))). exact (R1 k g f f Hf (cmono_refl f)).
  - destruct (snap_ok g f1 H1) as [Hi1 Hb1].
    unfold phase2 in Er. destruct (abs_idx hash f1 k) as [m|] eqn:Ea; [|discriminate].
    destruct (Hb1 k m Ea) as [p [d [Hp [Hl Hc]]]].
    destruct (read_hash_head (m_sri m) p Hp) as [k1 [E Hk]]. rewrite E in Er. injection Er as Ec Ek. subst c kk.
    split; [exact (proj1 (read_step_exec (ReadFile _) f I))|]. rewrite Hk.
    pose proof (Hm1 _ _ (content_path_content _ _ Hp) Hl) as Hl2.
    assert (fst (run (read hash k) f1) = rh_answer (m_sri m) (fst (exec (ReadFile (InCache p)) f))) as <-.
    { rewrite (phase2_run k f1 Hi1). unfold phase2. rewrite Ea, (run_one_step _ _ _ _ f1 E Hk).
      rewrite (exec_readfile_file _ _ _ Hl), (exec_readfile_file _ _ _ Hl2). reflexivity. }
    exact (R2 k g f f1 H1).
  - discriminate.
Qed.

Lemma rst_ret k g f a : rst k g f (Ret a) -> exists f1, Snap g f1 /\ a = fst (run (read hash k) f1).
Proof.
  intros H. remember (Ret a) as r eqn:Er. destruct H as [|f1 H1 _|f1 H1].
  - discriminate Er.
  - exists f1. split; [exact H1|]. rewrite (phase2_run k f1 (proj1 (snap_ok g f1 H1))), Er. reflexivity.
  - exists f1. split; [exact H1|]. inversion Er. reflexivity.
Qed.

End Reader.

Section Pools.
Variable ws : list wspec.
Variable f0 : fs.
Hypothesis Hinv0 : CacheInv f0.
Hypothesis Hb0 : Backed f0.
Hypothesis Hcf : coll_free hash ws.
Hypothesis Hc0 : coll0 ws f0.
Hypothesis Hwf : Forall (fun x => wf_rec hash (hop_rec (x_hop hash x))) ws.

Let s0 : pool (res integrity) * fs := (map (wprog hash) ws, f0).

Lemma reach_facts s : preach s0 s ->
  PInvW hash ws f0 s /\ CProv ws f0 (snd s) /\ cmono f0 (snd s) /\ IndexInv (snd s) /\ Backed (snd s).
Proof.
  intros Hr.
  destruct (cprov_reach ws f0 s0 s Hcf Hc0 Hwf (PInvW_init hash ws f0 Hinv0) (cprov_init ws f0) Hr) as [Hi [Hp Hm]].
  split; [exact Hi|]. split; [exact Hp|]. split; [exact Hm|]. destruct s as [pl f]. cbn [snd] in *.
  split; [|exact (backed_reach ws f0 pl f (proj1 Hinv0) Hb0 Hwf Hi Hm)].
  destruct Hi as [done Hi]. exact (proj1 (proj1 (PInvWd_index hash HL ws f0 done pl f (proj1 Hinv0) Hwf Hi))).
Qed.

Lemma reach_mono s1 s2 : preach s0 s1 -> preach s1 s2 -> cmono (snd s1) (snd s2).
Proof.
  intros H1 H2. destruct (reach_facts s1 H1) as [Hi [Hp _]].
  exact (proj2 (proj2 (cprov_reach ws f0 s1 s2 Hcf Hc0 Hwf Hi Hp H2))).
Qed.

(* the ghost is the current state [s] of the writers; a reader's index step happened in a state between [s0] and [s] *)
Definition snap (s : pool (res integrity) * fs) (f1 : fs) : Prop :=
  exists s1, preach s0 s1 /\ preach s1 s /\ f1 = snd s1.

Lemma snap_facts s f1 : snap s f1 -> IndexInv f1 /\ Backed f1.
Proof. intros [s1 [H1 [_ ->]]]. destruct (reach_facts s1 H1) as [_ [_ [_ H]]]. exact H. Qed.

Definition Wr (g s : pool (res integrity) * fs) : Prop := g = s /\ preach s0 s.

Lemma Wr_step g pl f pl' f' : Wr g (pl, f) -> pstep (pl, f) (pl', f') ->
  exists g', Wr g' (pl', f') /\ forall k r, rst snap k g f r -> rst snap k g' f' r.
Proof.
  intros [-> Hr] Hs. exists (pl', f'). split; [split; [reflexivity|exact (preach_snoc _ _ _ Hr Hs)]|].
  intros k r. apply rst_grow.
  - intros f1 [s1 [H1 [H2 E]]]. exists s1. split; [exact H1|]. split; [exact (preach_snoc _ _ _ H2 Hs)|exact E].
  - exact (reach_mono (pl, f) (pl', f') Hr (PTrans _ _ _ Hs (PRefl _))).
Qed.

Lemma rst_step g pl f k c kk : Wr g (pl, f) -> rst snap k g f (Do c kk) ->
  snd (exec c f) = f /\ rst snap k g f (kk (fst (exec c f))).
Proof.
  intros [-> Hr]. apply (rst_read_step snap snap_facts). exists (pl, f). split; [exact Hr|]. split; [apply PRefl|reflexivity].
Qed.

(* the theorem: each reader answers as the same read executed atomically at a reachable state of the writers *)
Theorem readers_among_writers ks pl' rl' f' :
  oreach (map (wprog hash) ws, map (read hash) ks, f0) (pl', rl', f') ->
  preach (map (wprog hash) ws, f0) (pl', f') /\
  forall j a, (j < List.length ks)%nat -> nth j rl' (Ret Stuck) = Ret a ->
    exists s1, preach (map (wprog hash) ws, f0) s1 /\ preach s1 (pl', f') /\
               a = fst (run (read hash (nth j ks [])) (snd s1)).
Proof.
  intros Hr.
  destruct (OInv_reach Wr (rst snap) Wr_step rst_step ks _ _
              (OInv_init Wr (rst snap) s0 _ f0 (read hash) ks (conj eq_refl (PRefl s0)) (fun k => R0 snap k s0 f0)) Hr)
    as [g [[-> Hp] Hst]].
  split; [exact Hp|]. intros j a Hj Ha.
  pose proof (Forall2_nth _ ks rl' [] (Ret Stuck) j Hst Hj) as H. cbn beta in H. rewrite Ha in H.
  destruct (rst_ret snap snap_facts _ _ _ a H) as [f1 [[s1 [H1 [H2 ->]]] ->]].
  exists s1. split; [exact H1|]. split; [exact H2|reflexivity].
Qed.

(* what an atomic read answers in a reachable state of the writers: not found, or the complete bytes of the initial entry
   or of a writer of that key which has appended its record *)
Theorem atomic_read_value k s :
  preach (map (wprog hash) ws, f0) s ->
  fst (run (read hash k) (snd s)) = Err ENotFound /\ abs_idx hash (snd s) k = None \/
  exists m d, abs_idx hash (snd s) k = Some m /\ fst (run (read hash k) (snd s)) = Ok d /\ check_res hash (m_sri m) d = Ok tt /\
    (abs_idx hash f0 k = Some m \/
     exists x, In x ws /\ ws_rm x = false /\ bytes_eqb k (ws_key x) = true /\ m_sri m = x_sri hash x /\ d = ws_data x).
Proof.
  intros Hr. destruct (reach_facts s Hr) as [Hi [_ [_ [Hidx Hb]]]].
  rewrite (phase2_run k (snd s) Hidx). unfold phase2.
  destruct (abs_idx hash (snd s) k) as [m|] eqn:Ea; [|left; split; reflexivity].
  right. destruct (Hb k m Ea) as [p [d [Hp [Hl Hc]]]]. exists m, d. split; [reflexivity|].
  destruct (read_hash_head (m_sri m) p Hp) as [k1 [E Hk]].
  split. { rewrite (run_one_step _ _ _ _ _ E Hk), (exec_readfile_file _ _ _ Hl). cbn [fst rh_answer]. rewrite Hc. reflexivity. }
  split; [exact Hc|].
  destruct s as [pl f], Hi as [done Hi]. cbn [snd] in *.
  destruct (visible_entry ws f0 done pl f k m (proj1 Hinv0) Hwf Hi Ea) as [H0|(x & Hx & Erm & Hkey & Es & Hy)]; [left; exact H0|].
  right. exists x. split; [exact Hx|]. split; [exact Erm|]. split; [exact Hkey|]. split; [exact Es|].
  rewrite Es in Hp. unfold x_sri in Hp. rewrite (content_path_computed hash (ws_a x) (ws_data x) HL) in Hp. injection Hp as <-.
  unfold x_cp in Hy. rewrite Hy in Hl. injection Hl as <-. reflexivity.
Qed.

(* the hypotheses on the initial cache are met by the empty cache and by every state the writers reach *)
Lemma reach_cache_ok s : preach (map (wprog hash) ws, f0) s -> CacheInv (snd s) /\ Backed (snd s).
Proof.
  intros Hr. destruct (reach_facts s Hr) as [Hi [_ [_ [_ Hb]]]]. split; [|exact Hb].
  destruct s as [pl f], Hi as [done Hi]. exact (proj1 (PInvWd_index hash HL ws f0 done pl f (proj1 Hinv0) Hwf Hi)).
Qed.

End Pools.

Lemma backed_empty : Backed [].
Proof. intros k m H. unfold abs_idx, bucket_bytes in H. cbn in H. discriminate. Qed.

(* no symbolic link anywhere in the content area: true of every cache that ordinary writes produce, kept by the pool *)
Definition NoSymC (f : fs) : Prop := forall p t, lookup f (InCache (content_dir :: p)) <> Some (Symlink t).

Lemma nosym_step ws f0 pl f pl' f' :
  PInvW hash ws f0 (pl, f) -> NoSymC f -> pstep (pl, f) (pl', f') -> NoSymC f'.
Proof.
  intros Hinv Hn Hs p t H.
  destruct (step_effect ws f0 pl f pl' f' _ Hinv Hs (ex_intro _ p eq_refl)) as [E|[[_ E]|(x & _ & _ & _ & E)]]; rewrite E in H;
    [exact (Hn p t H)|discriminate|discriminate].
Qed.

End CR.
