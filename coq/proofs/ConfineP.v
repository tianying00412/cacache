(* ConfineP.v — C15: every location any step of any API program can create, change or delete lies inside the cache
   (or is the destination handed to an extraction); read-only calls have no mutating step at all; keys reach paths
   only through their hash; path components are hex strings / fixed literals. *)
From CC Require Import Bytes Codec Sri Record Fs Prog Api Crash BytesP CodecP ProgP StepsP FaultP.
From Coq Require Import Lia.
Local Open Scope N_scope.

Definition in_cache (l : loc) : Prop := exists p, l = InCache p.
Definition confined (dst : option loc) (c : sys) : Prop :=
  forall l, may_touch c l -> in_cache l \/ dst = Some l.
Definition readonly (c : sys) : Prop := forall l, ~ may_touch c l.

Definition wtmp_in (w : wstate) : Prop := exists p, w_tmp w = InCache p.

Lemma touches_confined dst c : touches in_cache c -> confined dst c.
Proof. intros H l Hl. left. exact (H l Hl). Qed.

Lemma tmpfile_in_cache l : tmpfile l -> in_cache l.
Proof. intros [n ->]. eexists. reflexivity. Qed.

Lemma paths_in_cache ps l : In l (map InCache ps) -> in_cache l.
Proof. intros H. apply in_map_iff in H as [q [<- _]]. eexists. reflexivity. Qed.

Lemma reads_readonly {A} (p : prog A) : all_steps read_step p -> all_steps readonly p.
Proof. exact (all_steps_impl _ _ p (read_step_touches _)). Qed.

Lemma open_step_confined dst c : open_step c -> confined dst c.
Proof.
  intros H. apply touches_confined. intros l Hl.
  destruct (open_step_touches c H l Hl) as [->|Ht]; [eexists; reflexivity|exact (tmpfile_in_cache l Ht)].
Qed.

Lemma tmp_step_confined dst t c : in_cache t -> tmp_step t c -> confined dst c.
Proof. intros Ht H. apply touches_confined. intros l Hl. rewrite <- (tmp_step_touches t c H l Hl). exact Ht. Qed.

Lemma publish_step_confined dst t cp c : in_cache t -> publish_step t cp c -> confined dst c.
Proof.
  intros Ht H. apply touches_confined. intros l Hl.
  destruct (publish_step_touches t cp c H l Hl) as [->|[Hin| ->]]; [exact Ht|exact (paths_in_cache _ l Hin)|eexists; reflexivity].
Qed.

Lemma index_step_confined dst b c : index_step b c -> confined dst c.
Proof.
  intros H. apply touches_confined. intros l Hl.
  destruct (index_step_touches b c H l Hl) as [Hin| ->]; [exact (paths_in_cache _ l Hin)|eexists; reflexivity].
Qed.

Lemma unlink_step_confined dst (R : loc -> Prop) :
  (forall l, R l -> in_cache l) -> forall c, unlink_step R c -> confined dst c.
Proof. intros HR c H. apply touches_confined. intros l Hl. exact (HR l (unlink_step_touches R c H l Hl)). Qed.

Lemma clear_step_confined dst c : clear_step c -> confined dst c.
Proof. intros H. apply touches_confined. exact (clear_step_touches c H). Qed.

Lemma extract_step_confined dst c : extract_step dst c -> confined (Some dst) c.
Proof. intros H l Hl. right. f_equal. exact (extract_step_touches dst c H l Hl). Qed.

Section Cf.
Variable hash : algo -> bytes -> bytes.

Lemma commit_step_confined dst w c : wtmp_in w -> commit_step hash w c -> confined dst c.
Proof.
  intros Hw [[H|(cp & _ & H)]|(k & _ & H)];
    [exact (tmp_step_confined dst _ c Hw H)|exact (publish_step_confined dst _ cp c Hw H)|exact (index_step_confined dst _ c H)].
Qed.

(* a one-shot write, from any tree and whichever of its steps fail, is confined: the writer it opens has its temp file
   inside the cache, and a chunk keeps it *)
Theorem oneshot_confined_faulty dst fl key o data now f : fsteps (fun c _ => confined dst c) (oneshot hash fl key o data now) f.
Proof.
  apply (oneshot_fsteps hash (confined dst)); [exact (open_step_confined dst)|].
  intros w c Ht [H|H]; [exact (tmp_step_confined dst _ c (tmpfile_in_cache _ Ht) H)|exact (commit_step_confined dst w c (tmpfile_in_cache _ Ht) H)].
Qed.

Theorem oneshot_confined dst fl key o data now f : steps_ok (fun c _ => confined dst c) (oneshot hash fl key o data now) f.
Proof. apply fsteps_steps_ok, oneshot_confined_faulty. Qed.

Theorem read_ro key : all_steps readonly (read hash key).
Proof. exact (reads_readonly _ (read_reads hash key)). Qed.

Lemma is_prefix_refl p : is_prefix p p = true.
Proof. induction p as [|x p IH]; [reflexivity|]. cbn. rewrite bytes_eqb_refl. exact IH. Qed.

(* a step that touches nothing is a read, or the mkdir of no directory at all; it leaves the tree exactly as it was *)
Lemma readonly_reads c : readonly c -> read_step c \/ c = MkdirAll [].
Proof.
  intros Hc. destruct c; cbn [may_touch read_step] in *; auto;
    try (exfalso; apply (Hc _ eq_refl)); try (exfalso; apply (Hc _ (or_introl eq_refl))).
  - destruct p as [|x p]; [auto|]. exfalso. apply (Hc (InCache [x])). left. reflexivity.
  - exfalso. apply (Hc (InCache (tmp_dir ++ [[]]))). eexists. reflexivity.
  - exfalso. apply (Hc (InCache p)). apply is_prefix_refl.
Qed.

Lemma readonly_exec c f : readonly c -> snd (exec c f) = f /\ mid_states c f = [].
Proof. intros Hc. destruct (readonly_reads c Hc) as [H| ->]; [exact (read_step_exec c f H)|split; reflexivity]. Qed.

(* a program without mutating steps leaves the tree exactly as it was — at the end and at every crash state *)
Theorem readonly_no_mutation {A} (p : prog A) f :
  all_steps readonly p -> snd (run p f) = f /\ Forall (fun g => g = f) (crash_states p f).
Proof.
  revert f. induction p as [a|c k IH]; intros f Hp; cbn [run crash_states snd all_steps] in *; [split; [reflexivity|constructor; [reflexivity|constructor]]|].
  destruct Hp as [Hc Hk]. destruct (readonly_exec c f Hc) as [E1 E2].
  destruct (exec c f) as [r f1]. cbn [snd] in E1. subst f1. rewrite E2. cbn [app].
  destruct (IH r f (Hk r)) as [H1 H2]. split; [exact H1|constructor; [reflexivity|exact H2]].
Qed.

(* keys are opaque: they reach paths only through their hash *)
Theorem key_only_via_hash k1 k2 : hash Sha1 k1 = hash Sha1 k2 -> bucket_path hash k1 = bucket_path hash k2.
Proof. intros H. unfold bucket_path, hash_key. rewrite H. reflexivity. Qed.

Definition hexchar (b : byte) : bool := let n := b2n b in ((48 <=? n) && (n <=? 57)) || ((97 <=? n) && (n <=? 102)).
Lemma hexd_hexchar n : n < 16 -> hexchar (hexd n) = true.
Proof.
  intros H. assert (In n (map N.of_nat (seq 0 16))) as Hin.
  { apply in_map_iff. exists (N.to_nat n). split; [apply N2Nat.id|apply in_seq; lia]. }
  cbn in Hin. repeat (destruct Hin as [<-|Hin]; [reflexivity|]). destruct Hin.
Qed.
Lemma hex_encode_hexchars l : forallb hexchar (hex_encode l) = true.
Proof.
  induction l as [|b l IH]; [reflexivity|]. unfold hex_encode in *. cbn [flat_map hex_byte app forallb]. rewrite IH.
  pose proof (b2n_bounded b) as Hb.
  rewrite !hexd_hexchar; [reflexivity| |].
  - apply N.mod_lt. discriminate.
  - apply N.div_lt_upper_bound; [discriminate|exact Hb].
Qed.
Lemma forallb_takeN {A} (p : A -> bool) n l : forallb p l = true -> forallb p (takeN n l) = true.
Proof. rewrite takeN_firstn. revert l. induction (N.to_nat n) as [|m IH]; intros l H; [reflexivity|]. destruct l as [|x l]; [reflexivity|]. cbn in *. apply andb_true_iff in H as [H1 H2]. rewrite H1. apply IH. exact H2. Qed.
Lemma forallb_dropN {A} (p : A -> bool) n l : forallb p l = true -> forallb p (dropN n l) = true.
Proof. rewrite dropN_skipn. revert l. induction (N.to_nat n) as [|m IH]; intros l H; [exact H|]. destruct l as [|x l]; [reflexivity|]. cbn in *. apply andb_true_iff in H as [H1 H2]. apply IH. exact H2. Qed.

(* every component below index-v5 / content-v2/<algo> is a string over [0-9a-f]: never ".", "..", never contains "/" or NUL *)
Theorem bucket_components_hex key : exists a b c, bucket_path hash key = [index_dir; a; b; c] /\
  forallb hexchar a = true /\ forallb hexchar b = true /\ forallb hexchar c = true.
Proof.
  unfold bucket_path, hash_key. eexists _, _, _. split; [reflexivity|].
  pose proof (hex_encode_hexchars (hash Sha1 key)) as H. repeat split; auto using forallb_takeN, forallb_dropN.
Qed.
Theorem content_components_hex i p : content_path i = Some p -> exists al a b c, p = [content_dir; algo_name al; a; b; c] /\
  forallb hexchar a = true /\ forallb hexchar b = true /\ forallb hexchar c = true.
Proof.
  unfold content_path, sri_to_hex. destruct i as [|h t]; [discriminate|]. destruct (b64_decode (h_digest h)) as [raw|]; [|discriminate].
  destruct (lenN (hex_encode raw) <? 4); [discriminate|]. intros H. inversion H. eexists _, _, _, _. split; [reflexivity|].
  pose proof (hex_encode_hexchars raw) as Hh. repeat split; auto using forallb_takeN, forallb_dropN.
Qed.

End Cf.
