(* LinesP.v — the line reader is local: what a line contributes depends on that line only, and
   appending "\n" ++ line to a file adds exactly that line's contribution. *)
From CC Require Import Bytes Lines BytesP.

Lemma lines_of_app xs ys : ys <> [] -> lines_of (xs ++ ys) = map strip_cr xs ++ lines_of ys.
Proof.
  intros Hy. induction xs as [|x xs IH]; [reflexivity|].
  simpl app. destruct (xs ++ ys) as [|z zs] eqn:E.
  - destruct xs; simpl in E; [congruence|discriminate].
  - simpl map. rewrite <- IH. reflexivity.
Qed.

Lemma lines_app a r : lines (a ++ nl :: r) = map strip_cr (split nl a) ++ lines r.
Proof. unfold lines. rewrite split_app_sep. apply lines_of_app, split_nonempty. Qed.

Lemma strip_cr_id s : ends_cr s = false -> strip_cr s = s.
Proof. unfold strip_cr, ends_cr. destruct (rev s); [reflexivity|]. intros ->. reflexivity. Qed.

Section Contrib.
Context {E : Type}.
Variable contrib : bytes -> list E.
Hypothesis contrib_nil : contrib [] = [].

Lemma lines_of_single line : flat_map contrib (lines_of [line]) = contrib line.
Proof. destruct line; simpl; [symmetry; exact contrib_nil | apply app_nil_r]. Qed.

Lemma lines_of_app_last segs l :
  segs <> [] ->
  ends_cr (last segs []) = false ->
  flat_map contrib (lines_of (segs ++ [l])) =
  flat_map contrib (lines_of segs) ++ flat_map contrib (lines_of [l]).
Proof.
  intros Hne Hcr. destruct (exists_last Hne) as (init & s & ->). rewrite last_last in Hcr.
  rewrite !lines_of_app by discriminate.
  rewrite map_app, !flat_map_app, !lines_of_single. cbn [map flat_map].
  rewrite (strip_cr_id s Hcr), app_nil_r. reflexivity.
Qed.

Lemma lines_app_line f line :
  (forall b, In b line -> Byte.eqb b nl = false) ->
  ends_cr (last (split nl f) []) = false ->
  flat_map contrib (lines (f ++ nl :: line)) =
  flat_map contrib (lines f) ++ flat_map contrib (lines_of [line]).
Proof.
  intros Hnl Hcr. unfold lines.
  rewrite split_app_sep, (split_no_sep nl line Hnl).
  apply lines_of_app_last; [apply split_nonempty|exact Hcr].
Qed.

End Contrib.

Lemma last_split_app f line :
  (forall b, In b line -> Byte.eqb b nl = false) ->
  last (split nl (f ++ nl :: line)) [] = line.
Proof.
  intros Hnl. rewrite split_app_sep, (split_no_sep nl line Hnl).
  apply last_last.
Qed.
