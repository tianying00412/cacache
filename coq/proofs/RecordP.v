(* RecordP.v — the bucket reader on arbitrary bytes: line-locality, append, no fabrication;
   [ls] of a bucket agrees with [find]. *)
From CC Require Import Bytes Codec Utf8 Lines Sri Record BytesP CodecP LinesP LsP.

Section R.
Variable hash : algo -> bytes -> bytes.

Lemma contrib_nil : contrib hash [] = [].
Proof. reflexivity. Qed.

Definition no_nl (l : bytes) : Prop := forall b, In b l -> Byte.eqb b nl = false.
Definition no_pending_cr (f : bytes) : Prop := ends_cr (last (split nl f) []) = false.

Theorem entries_app_line f line :
  no_nl line -> no_pending_cr f ->
  entries hash (f ++ nl :: line) = entries hash f ++ contrib hash line.
Proof.
  intros Hnl Hcr. unfold entries.
  rewrite (lines_app_line (contrib hash) contrib_nil f line Hnl Hcr).
  rewrite (lines_of_single (contrib hash) contrib_nil). reflexivity.
Qed.

Lemma no_pending_cr_app f line :
  no_nl line -> ends_cr line = false -> no_pending_cr (f ++ nl :: line).
Proof. intros Hnl Hcr. unfold no_pending_cr. rewrite (last_split_app f line Hnl). exact Hcr. Qed.

Theorem entries_middle_line a l b :
  no_nl l ->
  entries hash (a ++ nl :: l ++ nl :: b) =
  flat_map (contrib hash) (map strip_cr (split nl a)) ++ contrib hash (strip_cr l)
    ++ flat_map (contrib hash) (lines b).
Proof.
  intros Hl. unfold entries. rewrite !lines_app, (split_no_sep nl l Hl), !flat_map_app.
  cbn [map flat_map]. rewrite app_nil_r. reflexivity.
Qed.

(* damage confined to one line: replacing l by l' changes only that line's contribution *)
Corollary damage_local a l l' b :
  no_nl l -> no_nl l' ->
  exists pre post,
    entries hash (a ++ nl :: l ++ nl :: b) = pre ++ contrib hash (strip_cr l) ++ post /\
    entries hash (a ++ nl :: l' ++ nl :: b) = pre ++ contrib hash (strip_cr l') ++ post.
Proof.
  intros Hl Hl'. exists (flat_map (contrib hash) (map strip_cr (split nl a))), (flat_map (contrib hash) (lines b)).
  split; apply entries_middle_line; assumption.
Qed.

(* destroying the newline between two records fuses exactly those two *)
Corollary newline_fusion a l1 l2 b :
  no_nl l1 -> no_nl l2 ->
  exists pre post,
    entries hash (a ++ nl :: l1 ++ nl :: l2 ++ nl :: b)
      = pre ++ contrib hash (strip_cr l1) ++ contrib hash (strip_cr l2) ++ post /\
    entries hash (a ++ nl :: (l1 ++ l2) ++ nl :: b)
      = pre ++ contrib hash (strip_cr (l1 ++ l2)) ++ post.
Proof.
  intros H1 H2.
  exists (flat_map (contrib hash) (map strip_cr (split nl a))), (flat_map (contrib hash) (lines b)).
  split.
  - rewrite (entries_middle_line a l1 (l2 ++ nl :: b) H1), lines_app, (split_no_sep nl l2 H2). reflexivity.
  - apply entries_middle_line. intros x Hx. apply in_app_or in Hx as [Hx|Hx]; [apply H1|apply H2]; exact Hx.
Qed.

Lemma split_cons_inv sep l s ss : split sep l = s :: ss ->
  match ss with
  | [] => l = s
  | _ => exists rest, l = s ++ sep :: rest /\ split sep rest = ss
  end.
Proof.
  revert s ss. induction l as [|x l IH]; intros s ss H; simpl in H.
  - inversion H; subst. reflexivity.
  - destruct (Byte.eqb x sep) eqn:E.
    + inversion H; subst. apply byte_eqb_eq in E. subst.
      destruct (split sep l) eqn:El; [exfalso; eapply split_nonempty; eauto|].
      exists l. split; [reflexivity|exact El].
    + destruct (split sep l) as [|s0 ss0] eqn:El; [exfalso; eapply split_nonempty; eauto|].
      inversion H; subst. specialize (IH s0 ss eq_refl).
      destruct ss.
      * subst. reflexivity.
      * destruct IH as [rest [-> Hr]]. exists rest. split; [reflexivity|exact Hr].
Qed.

Lemma split_two_inv sep l a b : split sep l = [a; b] -> l = a ++ sep :: b.
Proof.
  intros H. apply split_cons_inv in H. destruct H as [rest [-> Hr]].
  apply split_cons_inv in Hr. subst. reflexivity.
Qed.

Lemma entry_of_line_inv line m :
  In m (entry_of_line hash line) ->
  exists h text, line = h ++ tab :: text /\ h = hash_entry hash text /\ parse_smeta text = Some m.
Proof.
  unfold entry_of_line. destruct (split tab line) as [|h [|text [|x xs]]] eqn:E; try (intros []).
  destruct (bytes_eqb (hash_entry hash text) h) eqn:Eh; [|intros []].
  destruct (parse_smeta text) as [m'|] eqn:Ep; [|intros []].
  intros [<-|[]]. exists h, text. split; [apply split_two_inv; exact E|].
  split; [symmetry; apply bytes_eqb_eq; exact Eh|exact Ep].
Qed.

(* every entry the reader returns is the decoding of a checksum-valid line of the file *)
Theorem no_fabrication f m :
  In m (entries hash f) ->
  exists line h text,
    In line (lines f) /\ valid_utf8 line = true /\
    line = h ++ tab :: text /\ h = hash_entry hash text /\ parse_smeta text = Some m.
Proof.
  unfold entries. rewrite in_flat_map. intros [line [Hin Hm]].
  unfold contrib in Hm. destruct (valid_utf8 line) eqn:Ev; [|destruct Hm].
  apply entry_of_line_inv in Hm as [h [text [H1 [H2 H3]]]].
  exists line, h, text. auto.
Qed.

Lemma hex_encode_clean l x : In x (hex_encode l) -> Byte.eqb x tab = false /\ Byte.eqb x nl = false /\ Byte.eqb x cr = false.
Proof.
  intros H.
  pose proof (hex_encode_all (fun x => negb (Byte.eqb x tab || Byte.eqb x nl || Byte.eqb x cr)) eq_refl l) as A.
  rewrite forallb_forall in A. apply A, negb_true_iff in H.
  apply orb_false_iff in H as [H H3]. apply orb_false_iff in H as [H1 H2]. auto.
Qed.

Definition no_tab (l : bytes) : Prop := forall b, In b l -> Byte.eqb b tab = false.

Theorem entry_of_record_line text m :
  no_tab text -> parse_smeta text = Some m ->
  entry_of_line hash (record_line hash text) = [m].
Proof.
  intros Ht Hp. unfold entry_of_line, record_line.
  rewrite split_two; [|intros x Hx; apply (hex_encode_clean _ _ Hx)|exact Ht].
  rewrite bytes_eqb_refl, Hp. reflexivity.
Qed.

Lemma find_in_app key es e : find_in key (es ++ [e]) = find_step key (find_in key es) e.
Proof. unfold find_in. rewrite fold_left_app. reflexivity. Qed.

Lemma find_in_app_other key es e :
  sm_key e <> key -> find_in key (es ++ [e]) = find_in key es.
Proof.
  intros H. rewrite find_in_app. unfold find_step.
  destruct (bytes_eqb (sm_key e) key) eqn:E; [apply bytes_eqb_eq in E; contradiction|reflexivity].
Qed.

Definition meta_of (e : smeta) : option meta :=
  match sm_integrity e with
  | Some text => match parse_entry_sri text with
                 | Some i => Some (mkMeta (sm_key e) i (sm_time e) (sm_size e) (sm_metadata e) (sm_raw e))
                 | None => None end
  | None => None
  end.
Definition view (e : smeta) : bytes * option meta := (sm_key e, meta_of e).

Lemma find_in_view key es :
  find_in key es = gfind bytes meta bytes_eqb key (map view (filter parses es)).
Proof.
  unfold find_in, gfind. generalize (@None meta) as acc.
  induction es as [|e es IH]; intros acc; [reflexivity|].
  cbn [fold_left filter]. destruct (parses e) eqn:Ep.
  - cbn [map fold_left]. rewrite IH. f_equal.
    unfold find_step, view, meta_of, parses in *. cbn [fst snd].
    destruct (bytes_eqb (sm_key e) key); [|reflexivity].
    destruct (sm_integrity e) as [t|]; [|reflexivity].
    destruct (parse_entry_sri t); [reflexivity|discriminate].
  - rewrite IH. f_equal. unfold find_step, parses in *.
    destruct (sm_integrity e) as [t|]; [|discriminate].
    destruct (parse_entry_sri t); [discriminate|].
    destruct (bytes_eqb (sm_key e) key); reflexivity.
Qed.

Lemma dedupe_view seen l :
  map view (dedupe seen l) = gdedupe bytes meta bytes_eqb seen (map view l).
Proof.
  revert seen. induction l as [|e l IH]; intros seen; [reflexivity|].
  cbn [dedupe map gdedupe]. cbn [view fst].
  destruct (existsb (bytes_eqb (sm_key e)) seen); [apply IH|].
  cbn [map]. rewrite IH. reflexivity.
Qed.

Lemma live_view l :
  flat_map live l = map snd (flat_map (glive bytes meta) (map view l)).
Proof.
  induction l as [|e l IH]; [reflexivity|].
  cbn [flat_map map]. rewrite map_app, <- IH. f_equal.
  unfold live, glive, view, meta_of. cbn [fst snd].
  destruct (sm_integrity e) as [t|]; [|reflexivity].
  destruct (parse_entry_sri t); reflexivity.
Qed.

Lemma ls_entries_view es :
  ls_entries es = map snd (gls bytes meta bytes_eqb (map view (filter parses es))).
Proof.
  unfold ls_entries, gls. rewrite live_view, dedupe_view, map_rev. reflexivity.
Qed.

Lemma find_in_key key es m : find_in key es = Some m -> m_key m = key.
Proof.
  induction es as [|e es IH] using rev_ind; [discriminate|].
  rewrite find_in_app. unfold find_step.
  destruct (bytes_eqb (sm_key e) key) eqn:E; [|exact IH].
  apply bytes_eqb_eq in E.
  destruct (sm_integrity e) as [t|]; [|discriminate].
  destruct (parse_entry_sri t); [|exact IH].
  intros H. inversion H; subst. reflexivity.
Qed.

Theorem ls_iff_find es m :
  In m (ls_entries es) <-> find_in (m_key m) es = Some m.
Proof.
  rewrite ls_entries_view, in_map_iff. split.
  - intros [[k m'] [Hs Hin]]. cbn [snd] in Hs. subst m'.
    apply (gls_iff_gfind bytes meta bytes_eqb bytes_eqb_spec) in Hin.
    rewrite <- find_in_view in Hin. rewrite (find_in_key _ _ _ Hin). exact Hin.
  - intros H. exists (m_key m, m). split; [reflexivity|].
    apply (gls_iff_gfind bytes meta bytes_eqb bytes_eqb_spec). rewrite <- find_in_view. exact H.
Qed.

Corollary find_listed key es m : find_in key es = Some m -> In m (ls_entries es).
Proof. intros H. apply ls_iff_find. rewrite (find_in_key _ _ _ H). exact H. Qed.

Theorem ls_keys_nodup es : NoDup (map m_key (ls_entries es)).
Proof.
  rewrite ls_entries_view.
  set (L := gls bytes meta bytes_eqb (map view (filter parses es))).
  assert (forall p, In p L -> m_key (snd p) = fst p) as Hk.
  { intros [k m] Hin. cbn [fst snd].
    apply (gls_iff_gfind bytes meta bytes_eqb bytes_eqb_spec) in Hin.
    rewrite <- find_in_view in Hin. apply (find_in_key _ _ _ Hin). }
  assert (map m_key (map snd L) = map fst L) as ->.
  { rewrite map_map. apply map_ext_in. exact Hk. }
  apply gls_nodup. exact bytes_eqb_spec.
Qed.

End R.
