(* WriteP.v — the content writer: invariant of an open writer, chunk writes, close (publication by rename). *)
From CC Require Import Bytes Codec Sri Fs Prog Api Crash BytesP CodecP FsP ProgP SriP StepsP.
From Coq Require Import Lia.
Local Open Scope N_scope.

Section W.
Variable hash : algo -> bytes -> bytes.

(* the only property of the digests the layout needs: at least two bytes (real ones have 16..64) *)
Definition HashLen : Prop := forall a d, 2 <= lenN (hash a d).

Definition hexdigest (a : algo) (d : bytes) : bytes := hex_encode (hash a d).
Definition cpath (a : algo) (d : bytes) : path :=
  let h := hexdigest a d in [content_dir; algo_name a; takeN 2 h; takeN 2 (dropN 2 h); dropN 4 h].

Lemma content_path_computed a d : HashLen -> content_path (sri_of hash a d) = Some (cpath a d).
Proof.
  intros HL. unfold content_path, sri_of, sri_to_hex. cbn [h_digest h_algo].
  rewrite b64_decode_encode. specialize (HL a d).
  assert (lenN (hex_encode (hash a d)) <? 4 = false) as -> by (apply N.ltb_ge; rewrite lenN_hex_encode; lia).
  reflexivity.
Qed.

Lemma parse_entry_computed a d : HashLen -> parse_entry_sri (sri_text (sri_of hash a d)) = Some (sri_of hash a d).
Proof.
  intros HL. unfold parse_entry_sri. rewrite (parse_sri_computed hash a d).
  unfold addressable, sri_of, sri_to_hex. cbn [h_digest h_algo]. rewrite b64_decode_encode.
  specialize (HL a d). assert (4 <=? lenN (hex_encode (hash a d)) = true) as -> by (apply N.leb_le; rewrite lenN_hex_encode; lia).
  reflexivity.
Qed.

Definition WInv (f : fs) (w : wstate) : Prop :=
  (exists n, w_tmp w = InCache [bs "tmp"; n]) /\
  w_written w = lenN (w_data w) /\
  exists d, lookup f (w_tmp w) = Some (File d) /\
    match w_map w with
    | Some sz => lenN d = sz /\ w_pos w = lenN (w_data w) /\ takeN (w_pos w) d = w_data w /\ w_pos w <= sz
    | None => d = w_data w
    end.

Definition same_writer (w w' : wstate) : Prop :=
  w_key w' = w_key w /\ w_opts w' = w_opts w /\ w_algo w' = w_algo w /\ w_tmp w' = w_tmp w.

Lemma store_at_len d off s : off + lenN s <= lenN d -> lenN (store_at d off s) = lenN d.
Proof.
  intros H. unfold store_at. rewrite !lenN_app, lenN_dropN, lenN_takeN by lia. lia.
Qed.

Lemma store_at_take d off s : off <= lenN d ->
  takeN (off + lenN s) (store_at d off s) = takeN off d ++ s.
Proof.
  intros H. unfold store_at. rewrite app_assoc.
  replace (off + lenN s) with (lenN (takeN off d ++ s)) by (rewrite lenN_app, lenN_takeN by lia; reflexivity).
  apply takeN_app_exact.
Qed.

Lemma exec_mmapstore f l d off s : lookup f l = Some (File d) -> off + lenN s <= lenN d ->
  exec (MmapStore l off s) f = (ROk, update f l (File (store_at d off s))).
Proof. intros H1 H2. unfold exec. rewrite H1. apply N.leb_le in H2. rewrite H2. reflexivity. Qed.

Lemma exec_truncate f l d n : lookup f l = Some (File d) -> exec (Truncate l n) f = (ROk, update f l (File (takeN n d))).
Proof. intros H1. unfold exec. rewrite H1. reflexivity. Qed.

Lemma exec_writeappend f l d s : lookup f l = Some (File d) ->
  exec (WriteAppend l s) f = (RNum (lenN s), update f l (File (d ++ s))).
Proof. intros H1. unfold exec. rewrite H1. reflexivity. Qed.

Theorem write_chunk_ok f w s :
  WInv f w ->
  exists w' f', run (write_chunk w s) f = (Ok w', f') /\ WInv f' w' /\ same_writer w w' /\
    w_data w' = w_data w ++ s /\ (forall l, l <> w_tmp w -> lookup f' l = lookup f l).
Proof.
  intros (Hn & Hwr & d & Hl & Hm).
  (* whichever way the bytes go, the temp file is rewritten to some [d'] that the new state describes *)
  assert (exists m pos d',
            run (write_chunk w s) f
            = (Ok (mkW (w_key w) (w_opts w) (w_algo w) (w_tmp w) m pos (w_written w + lenN s) (w_data w ++ s)),
               update f (w_tmp w) (File d')) /\
            match m with
            | Some sz => lenN d' = sz /\ pos = lenN (w_data w ++ s) /\ takeN pos d' = w_data w ++ s /\ pos <= sz
            | None => d' = w_data w ++ s
            end) as (m & pos & d' & Hr & Hm').
  { unfold write_chunk. destruct (w_map w) as [sz|].
    - destruct Hm as (Hlen & Hpos & Htake & Hle). destruct (w_pos w + lenN s <=? sz) eqn:Efit.
      + apply N.leb_le in Efit. exists (Some sz), (w_pos w + lenN s), (store_at d (w_pos w) s).
        erewrite run_rbind_ok; [|apply (run_step_ok _ _ ROk); [apply (exec_mmapstore _ _ d); [exact Hl|lia]|exact I]].
        split; [reflexivity|]. rewrite store_at_len, store_at_take, Htake, lenN_app by lia. repeat split; lia.
      + exists None, 0, (w_data w ++ s).
        erewrite run_rbind_ok; [|apply (run_step_ok _ _ ROk); [apply (exec_truncate _ _ d); exact Hl|exact I]].
        erewrite run_rbind_ok; [|apply (run_step_ok _ _ (RNum (lenN s))); [apply (exec_writeappend _ _ (takeN (w_pos w) d)); apply lookup_update_eq|exact I]].
        rewrite update_update, Htake. split; reflexivity.
    - subst d. exists None, 0, (w_data w ++ s).
      erewrite run_rbind_ok; [|apply (run_step_ok _ _ (RNum (lenN s))); [apply (exec_writeappend _ _ (w_data w)); exact Hl|exact I]].
      split; reflexivity. }
  eexists _, _. split; [exact Hr|]. split; [|split; [repeat split|split; [reflexivity|intros l Hne; apply lookup_update_neq; congruence]]].
  split; [exact Hn|]. split; [cbn [w_written w_data]; rewrite lenN_app; lia|]. exists d'. split; [apply lookup_update_eq|exact Hm'].
Qed.

Theorem write_chunks_ok f w cs :
  WInv f w ->
  exists w' f', run (write_chunks w cs) f = (Ok w', f') /\ WInv f' w' /\ same_writer w w' /\
    w_data w' = w_data w ++ List.concat cs /\ (forall l, l <> w_tmp w -> lookup f' l = lookup f l).
Proof.
  revert f w. induction cs as [|c cs IH]; intros f w Hw; cbn [write_chunks].
  - exists w, f. cbn [run List.concat]. rewrite app_nil_r. split; [reflexivity|]. split; [exact Hw|].
    split; [repeat split|]. split; [reflexivity|]. intros; reflexivity.
  - destruct (write_chunk_ok f w c Hw) as [w1 [f1 [Hr [Hw1 [Hs1 [Hd1 Ho1]]]]]].
    erewrite run_rbind_ok by exact Hr.
    destruct (IH f1 w1 Hw1) as [w2 [f2 [Hr2 [Hw2 [Hs2 [Hd2 Ho2]]]]]].
    exists w2, f2. split; [exact Hr2|]. split; [exact Hw2|].
    destruct Hs1 as (A1 & A2 & A3 & A4), Hs2 as (B1 & B2 & B3 & B4).
    split; [repeat split; congruence|]. split; [rewrite Hd2, Hd1; cbn [List.concat]; rewrite app_assoc; reflexivity|].
    intros l Hne. rewrite Ho2 by congruence. apply Ho1. exact Hne.
Qed.

Definition TmpShape (f : fs) : Prop := dir_or_absent f tmp_dir.

Lemma lenN_zeros n : lenN (zeros n) = n.
Proof.
  unfold zeros. induction n as [|n IH] using N.peano_ind; [reflexivity|].
  rewrite N.iter_succ. cbn [lenN]. rewrite IH. reflexivity.
Qed.

Lemma takeN_0 {A} (l : list A) : takeN 0 l = [].
Proof. destruct l; reflexivity. Qed.

Lemma exec_createtmp f : is_dir f tmp_dir = true ->
  exec CreateTmp f = (RName (fresh f), update f (InCache (tmp_dir ++ [fresh f])) (File [])).
Proof. intros H. unfold exec. rewrite H. reflexivity. Qed.

Lemma exec_fallocate f l n : lookup f l = Some (File []) -> n <> 0 ->
  exec (Fallocate l n) f = (ROk, update f l (File (zeros n))).
Proof.
  intros H Hn. unfold exec. rewrite H. apply N.eqb_neq in Hn. rewrite Hn. cbn [app lenN]. rewrite N.sub_0_r. reflexivity.
Qed.

Lemma open_writer_result f fl key o w f' :
  run (open_writer fl key o) f = (Ok w, f') ->
  WInv f' w /\ w_data w = [] /\ w_key w = key /\ w_opts w = o /\
  w_algo w = match o_algo o with Some a => a | None => Sha256 end /\
  lookup f (w_tmp w) = None /\ lookup f' (InCache tmp_dir) = Some Dir /\
  (forall l, l <> w_tmp w -> lookup f' l = lookup f l \/ l = InCache tmp_dir /\ lookup f l = None).
Proof.
  intros H. apply run_rbind_inv in H as (u & f1 & H1 & H).
  assert (f1 = snd (mkdirs f (prefixes tmp_dir))) as Ef1 by (rewrite <- exec_mkdirall, <- run_step_ok_snd, H1; reflexivity).
  pose proof (fun l => mkdirs_effect f (prefixes tmp_dir) f1 l (or_introl Ef1)) as Hmk. clear H1 Ef1 u.
  cbn [run] in H. unfold exec at 1 in H. destruct (is_dir f1 tmp_dir) eqn:Ed; [|discriminate]. cbn [run] in H.
  set (t := InCache (tmp_dir ++ [fresh f1])) in *.
  pose proof (is_dir_lookup f1 _ _ Ed) as Hd.
  assert (lookup f t = None) as Hfresh
    by (destruct (Hmk t) as [E|(E & _)]; [rewrite <- E; apply fresh_absent|exact E]).
  (* the temp file holds [d]: nothing as created, or the zeros of the preallocation *)
  assert (exists d m, match m with Some sz => lenN d = sz | None => d = [] end /\
            (Ok (mkW key o (match o_algo o with Some a => a | None => Sha256 end) t m 0 0 []), update f1 t (File d)) = (Ok w, f'))
    as (d & m & Hm & E).
  { destruct (content_size fl key o) as [sz|]; [destruct ((1 <=? sz) && (sz <=? max_mmap)) eqn:Er|];
      try (exists [], None; split; [reflexivity|exact H]).
    apply andb_true_iff in Er as [E1 _]. apply N.leb_le in E1.
    cbn [run] in H. rewrite (exec_fallocate _ t sz) in H by (try apply lookup_update_eq; lia). cbn [run] in H.
    exists (zeros sz), (Some sz). split; [apply lenN_zeros|]. rewrite <- H, update_update. reflexivity. }
  inversion E; subst w f'. cbn [w_data w_key w_opts w_algo w_tmp]. repeat split; auto.
  - exists (fresh f1). reflexivity.
  - exists d. split; [apply lookup_update_eq|]. destruct m; [|exact Hm]. cbn [w_pos w_data lenN].
    repeat split; [exact Hm|apply takeN_0|lia].
  - rewrite lookup_update_neq by discriminate. exact Hd.
  - intros l Hl. rewrite lookup_update_neq by congruence.
    destruct (Hmk l) as [E1|(E1 & _ & [<-|[]])]; [left; exact E1|right; auto].
Qed.

Theorem open_writer_ok f fl key o :
  TmpShape f ->
  exists w f', run (open_writer fl key o) f = (Ok w, f') /\ WInv f' w /\
    w_data w = [] /\ w_key w = key /\ w_opts w = o /\
    w_algo w = match o_algo o with Some a => a | None => Sha256 end /\
    lookup f (w_tmp w) = None /\ lookup f' (InCache tmp_dir) = Some Dir /\
    (forall l, l <> w_tmp w -> l <> InCache tmp_dir -> lookup f' l = lookup f l).
Proof.
  intros Ht.
  assert (exists w f', run (open_writer fl key o) f = (Ok w, f')) as (w & f' & Hr).
  { unfold open_writer. destruct (exec_mkdirall_ok f tmp_dir) as (f1 & Hmk & Hl1); [intros q [<-|[]]; exact Ht|].
    rewrite (run_rbind_ok _ _ _ _ _ (run_step_ok _ _ _ _ Hmk I)). cbn [run].
    rewrite (exec_createtmp f1) by (apply is_dir_of_lookup; rewrite Hl1; reflexivity).
    destruct (content_size fl key o) as [sz|]; [destruct ((1 <=? sz) && (sz <=? max_mmap)) eqn:Er|]; cbn [run]; eauto.
    apply andb_true_iff in Er as [E1 _]. apply N.leb_le in E1.
    rewrite (exec_fallocate _ _ sz) by (try apply lookup_update_eq; lia). cbn [run]. eauto. }
  destruct (open_writer_result f fl key o w f' Hr) as (H1 & H2 & H3 & H4 & H5 & H6 & H7 & H8).
  exists w, f'. repeat (split; [assumption|]). intros l Hl Hd. destruct (H8 l Hl) as [E|[E _]]; [exact E|contradiction].
Qed.

Theorem drop_writer_ok f w :
  WInv f w ->
  exists f', run (drop_writer w) f = (Ok tt, f') /\ lookup f' (w_tmp w) = None /\
    (forall l, l <> w_tmp w -> lookup f' l = lookup f l).
Proof.
  intros [_ [_ [d [Hl _]]]]. unfold drop_writer, unlink_quiet. cbn [run]. unfold exec. rewrite Hl.
  eexists. split; [reflexivity|]. split; [apply lookup_remove_eq|]. intros l Hne. apply lookup_remove_neq. congruence.
Qed.

Definition ContentShape (f : fs) : Prop :=
  forall p n, lookup f (InCache (content_dir :: p)) = Some n ->
    ((List.length p <= 3)%nat -> n = Dir) /\ (List.length p = 4%nat -> n <> Dir).

Lemma cpath_prefixes a d :
  prefixes (parent (cpath a d)) =
  let h := hexdigest a d in
  [[content_dir]; [content_dir; algo_name a]; [content_dir; algo_name a; takeN 2 h];
   [content_dir; algo_name a; takeN 2 h; takeN 2 (dropN 2 h)]].
Proof. reflexivity. Qed.

Lemma tmp_not_content n p : InCache [bs "tmp"; n] <> InCache (content_dir :: p).
Proof. discriminate. Qed.

Lemma exec_rename f src dst n : lookup f src = Some n -> parent_ok f dst = true -> lookup f dst <> Some Dir ->
  exec (Rename src dst) f = (ROk, update (remove f src) dst n).
Proof.
  intros H1 H2 H3. unfold exec. rewrite H1, H2. destruct (lookup f dst) as [[| |]|]; try reflexivity. congruence.
Qed.

Lemma trim_ok f w :
  WInv f w ->
  exists ft, run (trim w) f = (Ok tt, ft) /\ lookup ft (w_tmp w) = Some (File (w_data w)) /\
             (forall l, l <> w_tmp w -> lookup ft l = lookup f l).
Proof.
  intros [[n Hn] [Hwr [d [Hl Hm]]]]. unfold trim.
  destruct (w_map w) as [sz|].
  - destruct Hm as [Hlen [Hpos [Htake Hle]]]. destruct (w_pos w <? sz) eqn:Elt.
    + exists (update f (w_tmp w) (File (takeN (w_pos w) d))).
      split; [apply (run_step_ok _ _ ROk); [apply exec_truncate; exact Hl|exact I]|].
      split; [rewrite lookup_update_eq, Htake; reflexivity|]. intros l Hne. apply lookup_update_neq. congruence.
    + apply N.ltb_ge in Elt. exists f. split; [reflexivity|]. split; [|reflexivity].
      assert (w_pos w = lenN d) as Epos by lia. rewrite Epos, takeN_all in Htake. rewrite Hl, Htake. reflexivity.
  - subst d. exists f. split; [reflexivity|]. split; [exact Hl|reflexivity].
Qed.

Lemma cpath_shard_dirs a d q :
  In q (prefixes (parent (cpath a d))) -> exists p, q = content_dir :: p /\ (List.length p <= 3)%nat.
Proof. rewrite cpath_prefixes. cbv zeta. intros [<-|[<-|[<-|[<-|[]]]]]; eexists; (split; [reflexivity|cbn; lia]). Qed.

Lemma shard_mkdir f a d :
  ContentShape f ->
  exists f1, exec (MkdirAll (parent (cpath a d))) f = (ROk, f1) /\ lookup f1 (InCache (parent (cpath a d))) = Some Dir /\
    forall l, lookup f1 l = lookup f l \/
      (lookup f l = None /\ lookup f1 l = Some Dir /\ exists p, l = InCache (content_dir :: p) /\ (List.length p <= 3)%nat).
Proof.
  intros Hcs. destruct (exec_mkdirall_ok f (parent (cpath a d))) as (f1 & Hmk & Hl1).
  { intros q Hq. destruct (cpath_shard_dirs a d q Hq) as (p & -> & Hp). unfold dir_or_absent.
    destruct (lookup f (InCache (content_dir :: p))) as [nd|] eqn:El; [|left; reflexivity]. right. f_equal. apply (proj1 (Hcs p nd El) Hp). }
  exists f1. split; [exact Hmk|]. split.
  - rewrite Hl1, (proj2 (in_prefixes_b _ _)); [reflexivity|apply prefixes_last; discriminate].
  - intros l. replace f1 with (snd (exec (MkdirAll (parent (cpath a d))) f)) by (rewrite Hmk; reflexivity).
    destruct (mkdirs_effect f (prefixes (parent (cpath a d))) _ l (or_introl eq_refl)) as [E|(E0 & E1 & Hin)]; [left; exact E|right].
    apply in_map_iff in Hin as (q & <- & Hq). destruct (cpath_shard_dirs a d q Hq) as (p & -> & Hp). eauto 6.
Qed.

Lemma publish_ok f w :
  tmpfile (w_tmp w) -> lookup f (w_tmp w) = Some (File (w_data w)) -> ContentShape f ->
  let cp := InCache (cpath (w_algo w) (w_data w)) in
  exists f', run (publish w (cpath (w_algo w) (w_data w)) (sri_of hash (w_algo w) (w_data w))) f = (Ok (sri_of hash (w_algo w) (w_data w)), f') /\
    lookup f' cp = Some (File (w_data w)) /\ lookup f' (w_tmp w) = None /\ ContentShape f' /\
    (forall l, l <> cp -> l <> w_tmp w ->
       lookup f' l = lookup f l \/
       (lookup f l = None /\ lookup f' l = Some Dir /\ exists p, l = InCache (content_dir :: p) /\ (List.length p <= 3)%nat)).
Proof.
  intros [n Hn] Hl Hcs cp. unfold publish. set (a := w_algo w) in *. set (data := w_data w) in *.
  destruct (shard_mkdir f a data Hcs) as (f1 & Hmk & Hpar & Hfr).
  assert (lookup f1 (w_tmp w) = Some (File data)) as Hl2 by (destruct (Hfr (w_tmp w)) as [E|(E & _)]; congruence).
  assert (lookup f1 cp = lookup f cp) as Hcp1.
  { destruct (Hfr cp) as [E|(_ & _ & p & Ep & Hp)]; [exact E|]. inversion Ep; subst p. cbn in Hp. lia. }
  assert (forall p, InCache (content_dir :: p) <> w_tmp w) as Htc by (intros p E; rewrite Hn in E; exact (tmp_not_content n p (eq_sym E))).
  cbn [run]. rewrite Hmk. cbn [run]. fold cp.
  rewrite (exec_rename f1 _ cp (File data) Hl2).
  2: { apply is_dir_of_lookup. exact Hpar. }
  2: { rewrite Hcp1. intros Ecp. apply (proj2 (Hcs _ _ Ecp) eq_refl). reflexivity. }
  cbn [run]. eexists. split; [reflexivity|].
  split; [apply lookup_update_eq|]. split; [rewrite lookup_update_neq by apply Htc; apply lookup_remove_eq|].
  assert (forall l, l <> cp -> l <> w_tmp w -> lookup (update (remove f1 (w_tmp w)) cp (File data)) l = lookup f1 l) as Hfin.
  { intros l H1 H2. rewrite lookup_update_neq by congruence. apply lookup_remove_neq. congruence. }
  split.
  - (* at [cp] the file; elsewhere the old node, or a new shard directory *)
    intros p nd Hnd. destruct (loc_eq_dec (InCache (content_dir :: p)) cp) as [E|N].
    + rewrite E, lookup_update_eq in Hnd. inversion Hnd; subst nd. inversion E; subst p. split; [cbn; lia|discriminate].
    + rewrite Hfin in Hnd by (try exact N; apply Htc).
      destruct (Hfr (InCache (content_dir :: p))) as [E|(E0 & E1 & q & Eq & Hq)]; rewrite ?E in Hnd; [exact (Hcs p nd Hnd)|].
      rewrite E1 in Hnd. inversion Hnd; subst nd. inversion Eq; subst q. split; [reflexivity|lia].
  - intros l H1 H2. rewrite Hfin by assumption. apply Hfr.
Qed.

Theorem close_writer_ok f w :
  HashLen -> WInv f w -> ContentShape f ->
  let cp := InCache (cpath (w_algo w) (w_data w)) in
  exists f', run (close_writer hash w) f = (Ok (sri_of hash (w_algo w) (w_data w)), f') /\
    lookup f' cp = Some (File (w_data w)) /\ lookup f' (w_tmp w) = None /\ ContentShape f' /\
    (forall l, l <> cp -> l <> w_tmp w ->
       lookup f' l = lookup f l \/
       (lookup f l = None /\ lookup f' l = Some Dir /\ exists p, l = InCache (content_dir :: p) /\ (List.length p <= 3)%nat)).
Proof.
  intros HL Hw Hcs cp. pose proof Hw as [[n Hn] _].
  destruct (trim_ok f w Hw) as [ft [Htr [Hlt Hot]]].
  assert (ContentShape ft) as Hcst.
  { intros p nd Hnd. rewrite Hot in Hnd by (rewrite Hn; intro E; symmetry in E; revert E; apply tmp_not_content). exact (Hcs p nd Hnd). }
  destruct (publish_ok ft w (ex_intro _ n Hn) Hlt Hcst) as [f' [Hr [H1 [H2 [H3 H4]]]]].
  exists f'. unfold close_writer. rewrite (content_path_computed _ _ HL). rewrite run_bind, Htr. cbn [fst snd].
  split; [exact Hr|]. split; [exact H1|]. split; [exact H2|]. split; [exact H3|].
  intros l Hl1 Hl2. rewrite <- (Hot l Hl2). apply H4; assumption.
Qed.

Lemma close_step_touches w c :
  HashLen -> close_step hash w c ->
  touches (fun l => l = w_tmp w \/ In l (map InCache (prefixes (parent (cpath (w_algo w) (w_data w))))) \/
                    l = InCache (cpath (w_algo w) (w_data w))) c.
Proof.
  intros HL [H|(cp & E & H)] l Hl; [left; symmetry; exact (tmp_step_touches _ c H l Hl)|].
  rewrite (content_path_computed _ _ HL) in E. injection E as <-. exact (publish_step_touches _ _ c H l Hl).
Qed.

(* every rename of the run finds in its source exactly [data] *)
Definition rename_ok (data : bytes) (c : sys) (f : fs) : Prop :=
  match c with Rename s _ => lookup f s = Some (File data) | _ => True end.

Lemma tmp_step_rename_ok t data c f : tmp_step t c -> rename_ok data c f.
Proof. destruct c; cbn; auto. contradiction. Qed.

Lemma index_step_rename_ok b data c f : index_step b c -> rename_ok data c f.
Proof. destruct c; cbn; auto. contradiction. Qed.

Lemma publish_rename f w cp sri :
  lookup f (w_tmp w) = Some (File (w_data w)) -> steps_ok (rename_ok (w_data w)) (publish w cp sri) f.
Proof.
  intros Hl. assert (forall (r : res integrity) g, steps_ok (rename_ok (w_data w)) (unlink_quiet (w_tmp w) r) g) as Hu.
  { intros r g. split; [exact I|]. destruct (exec _ g). exact I. }
  split; [exact I|]. rewrite exec_mkdirall. pose proof (mkdirs_keeps f (prefixes (parent cp)) _ _ Hl) as Hl1.
  destruct (mkdirs f (prefixes (parent cp))) as [r0 f1]. cbn [snd] in Hl1. destruct r0; try apply Hu.
  all: split; [exact Hl1|]; destruct (exec (Rename _ _) f1) as [r f3]; destruct r; try exact I.
  all: split; [exact I|]; destruct (exec (Exists _) f3) as [r2 f4]; destruct r2 as [| |[|]| | | |]; apply Hu.
Qed.

Lemma close_writer_rename f w : WInv f w -> steps_ok (rename_ok (w_data w)) (close_writer hash w) f.
Proof.
  intros Hw. unfold close_writer. destruct (content_path _) as [cp|]; [|split; [exact I|destruct (exec _ f); exact I]].
  apply steps_ok_bind. split.
  - apply (all_steps_ok (tmp_step (w_tmp w))); [intros c g; apply tmp_step_rename_ok|apply trim_steps].
  - destruct (trim_ok f w Hw) as (ft & Htr & Hlt & _). rewrite Htr. apply publish_rename. exact Hlt.
Qed.

End W.
