(* KeepP.v — stored copies stay (C16 "leaves the stored copy byte-identical", C04/C14 "every other key keeps its value", the
   content half): at EVERY crash state of every write — one-shot, streamed, keyed or by address, re-writing the same bytes or
   writing others — a content file that was there is still there with the same bytes.  The only step of a write that names
   a content file at all is the publishing rename, and it renames a temp file that holds exactly the hashed bytes. *)
From CC Require Import Bytes Sri Fs Prog Api Crash FsP ProgP StepsP WriteP CommitP CrashIdxP.
From Coq Require Import Lia.
Local Open Scope N_scope.

Section Keep.
Variable hash : algo -> bytes -> bytes.
Hypothesis HL : HashLen hash.

(* a step keeps the file [d] at [l]: it does not name [l] at all, or it renames a file with the same bytes over it
   (creating a fresh temp file never names an existing location) *)
Definition ksafe (l : loc) (d : bytes) (c : sys) (f : fs) : Prop :=
  match c with
  | Rename src dst => src <> l /\ (dst = l -> lookup f src = Some (File d))
  | CreateTmp => True
  | _ => ~ may_touch c l
  end.
Lemma untouched_ksafe l d c f : ~ may_touch c l -> ksafe l d c f.
Proof. destruct c; cbn; auto. intros H. split; [intros ->|intros ->; exfalso]; apply H; auto. Qed.

Lemma keep_step l d c f :
  lookup f l = Some (File d) -> ksafe l d c f ->
  lookup (snd (exec c f)) l = Some (File d) /\ Forall (fun g => lookup g l = Some (File d)) (mid_states c f).
Proof.
  intros Hl Hs.
  assert (~ may_touch c l -> lookup (snd (exec c f)) l = Some (File d) /\ Forall (fun g => lookup g l = Some (File d)) (mid_states c f)) as Hfr.
  { intros Hn. rewrite <- Hl. exact (exec_frame c f l Hn). }
  destruct c; try (apply Hfr; exact Hs); (split; [|constructor]); unfold exec.
  - (* the fresh name is not [l], which exists *)
    destruct (is_dir f tmp_dir); [|exact Hl]. cbn [snd]. rewrite lookup_update_neq; [exact Hl|].
    intros E. pose proof (fresh_absent f) as Hf. rewrite E in Hf. congruence.
  - destruct Hs as [Hsrc Hdst]. destruct (loc_eq_dec dst l) as [->|Hne].
    + rewrite (Hdst eq_refl). destruct (parent_ok f l); [|exact Hl]. rewrite Hl. apply lookup_update_eq.
    + apply Hfr. intros [E|E]; congruence.
Qed.

Theorem keep_crash {A} l d (p : prog A) f :
  lookup f l = Some (File d) -> steps_ok (ksafe l d) p f ->
  Forall (fun g => lookup g l = Some (File d)) (crash_states p f) /\ lookup (snd (run p f)) l = Some (File d).
Proof. apply (crash_invariant (fun g => lookup g l = Some (File d)) (ksafe l d)). intros c g. apply keep_step. Qed.

(* a content file location: five components under content-v2 *)
Definition cfile (l : loc) : Prop := exists a d, l = InCache (cpath hash a d).

Lemma cpath_content a d : is_content (InCache (cpath hash a d)).
Proof. eexists. reflexivity. Qed.
Lemma cfile_content l : cfile l -> is_content l.
Proof. intros [a [d ->]]. apply cpath_content. Qed.
Lemma cfile_not_tmp l : cfile l -> ~ tmpfile l.
Proof. intros Hl Ht. exact (content_not_tmp l (cfile_content l Hl) (or_intror Ht)). Qed.
Lemma cfile_not_parent_prefix l a d : cfile l -> ~ In l (map InCache (prefixes (parent (cpath hash a d)))).
Proof.
  intros [a0 [d0 ->]] H. apply in_map_iff in H as [q [E Hq]]. inversion E; subst q.
  apply prefixes_length in Hq. unfold cpath in Hq. cbn in Hq. lia.
Qed.
Lemma index_step_no_content key c l : index_step (bucket_path hash key) c -> cfile l -> ~ may_touch c l.
Proof. intros H Hl Hc. exact (index_not_content l (index_step_index hash key c H l Hc) (cfile_content l Hl)). Qed.

(* the only step of a write that names a content file is the publishing rename of the temp file, onto the address
   of the data written *)
Lemma write_touches_content a data key c l :
  open_step c \/ (exists t, tmpfile t /\ (tmp_step t c \/ publish_step t (cpath hash a data) c)) \/
    (exists k, key = Some k /\ index_step (bucket_path hash k) c) ->
  cfile l -> may_touch c l -> exists t, tmpfile t /\ c = Rename t l /\ l = InCache (cpath hash a data).
Proof.
  intros [H|[(t & Ht & [H|H])|(k & _ & H)]] Hl Hc.
  - exfalso. exact (content_not_tmp l (cfile_content l Hl) (open_step_touches c H l Hc)).
  - exfalso. apply (cfile_not_tmp l Hl). rewrite <- (tmp_step_touches _ c H l Hc). exact Ht.
  - destruct c; cbn in H, Hc; try contradiction.
    + subst p. exfalso. exact (cfile_not_parent_prefix l a data Hl Hc).
    + destruct H as [-> ->]. destruct Hc as [->| ->]; [destruct (cfile_not_tmp _ Hl Ht)|eauto].
    + subst. destruct (cfile_not_tmp _ Hl Ht).
  - exfalso. exact (index_step_no_content k c l H Hl Hc).
Qed.

Section L.
Variable l : loc.
Hypothesis Hl : cfile l.

Lemma write_step_ksafe a data key c f d :
  write_step hash a data key c f -> (InCache (cpath hash a data) = l -> data = d) -> ksafe l d c f.
Proof.
  intros [H Hr] Hsame. pose proof (write_touches_content a data key c l H Hl) as Hc.
  destruct c; try (apply untouched_ksafe; intros Ht; destruct (Hc Ht) as (x & _ & E & _); discriminate E).
  cbn in Hr. split.
  - intros ->. destruct (Hc (or_introl eq_refl)) as (t & Ht & E & _). inversion E; subst. exact (cfile_not_tmp _ Hl Ht).
  - intros ->. destruct (Hc (or_intror eq_refl)) as (_ & _ & _ & E). rewrite Hr, (Hsame (eq_sym E)). reflexivity.
Qed.

Lemma write_steps_keep {A} (p : prog A) f a data key d :
  steps_ok (write_step hash a data key) p f -> lookup f l = Some (File d) -> (InCache (cpath hash a data) = l -> data = d) ->
  Forall (fun g => lookup g l = Some (File d)) (crash_states p f) /\ lookup (snd (run p f)) l = Some (File d).
Proof.
  intros Hs Hd Hsame. apply keep_crash; [exact Hd|].
  exact (steps_ok_impl _ _ _ _ (fun c g H => write_step_ksafe _ _ _ c g d H Hsame) Hs).
Qed.

(* every streamed write (any chunking, keyed or by address, any options): the copy at [l] is there with the same bytes at
   every crash state and at the end — provided the data being written, if it has the very address [l], is the data stored
   there (no digest collision between the two).  The tree may be any (the proof does not use the hypothesis [CacheInv f]), the
   steps of a write being known from every tree; when the writer cannot be opened the call ends there. *)
Theorem stream_write_keeps f fl key o cs now d :
  CacheInv f -> lookup f l = Some (File d) ->
  (InCache (cpath hash (algo_of o) (List.concat cs)) = l -> List.concat cs = d) ->
  Forall (fun g => lookup g l = Some (File d)) (crash_states (stream_write hash fl key o cs now) f) /\
  lookup (snd (run (stream_write hash fl key o cs now) f)) l = Some (File d).
Proof. intros _. exact (write_steps_keep _ f _ _ key d (stream_write_steps hash HL f fl key o cs now)). Qed.

Theorem oneshot_keeps f fl key o data now d :
  CacheInv f -> lookup f l = Some (File d) ->
  (InCache (cpath hash (algo_of o) data) = l -> data = d) ->
  Forall (fun g => lookup g l = Some (File d)) (crash_states (oneshot hash fl key o data now) f) /\
  lookup (snd (run (oneshot hash fl key o data now) f)) l = Some (File d).
Proof. intros _. exact (write_steps_keep _ f _ _ key d (oneshot_steps hash HL f fl key o data now)). Qed.

(* index-only operations (insert, tombstone removal) never name a content file *)
Theorem insert_keeps f key o now d :
  lookup f l = Some (File d) ->
  Forall (fun g => lookup g l = Some (File d)) (crash_states (insert hash key o now) f) /\
  lookup (snd (run (insert hash key o now) f)) l = Some (File d).
Proof.
  intros Hd. apply keep_crash; [exact Hd|]. apply (all_steps_ok (index_step (bucket_path hash key))); [|apply insert_steps].
  intros c g H. apply untouched_ksafe. exact (index_step_no_content key c l H Hl).
Qed.

End L.

(* the re-write of the very same bytes: no side condition left *)
Corollary rewrite_keeps_copy f fl key o data now :
  CacheInv f -> lookup f (InCache (cpath hash (algo_of o) data)) = Some (File data) ->
  Forall (fun g => lookup g (InCache (cpath hash (algo_of o) data)) = Some (File data)) (crash_states (oneshot hash fl key o data now) f) /\
  lookup (snd (run (oneshot hash fl key o data now) f)) (InCache (cpath hash (algo_of o) data)) = Some (File data).
Proof. intros Hinv Hd. apply oneshot_keeps; [eexists _, _; reflexivity|exact Hinv|exact Hd|reflexivity]. Qed.

End Keep.
