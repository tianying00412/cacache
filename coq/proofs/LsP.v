(* LsP.v — "reverse, keep the first record per key, drop tombstones" lists exactly what
   "fold, last record per key wins, tombstone clears" finds.  Generic in the key/value types. *)
From Coq Require Import List Bool.
Import ListNotations.

Section Ls.
Variable K V : Type.
Variable keqb : K -> K -> bool.
Hypothesis keqb_spec : forall a b, reflect (a = b) (keqb a b).

Definition grec := (K * option V)%type.

Definition gfind (k : K) (es : list grec) : option V :=
  fold_left (fun acc e => if keqb (fst e) k then snd e else acc) es None.

Fixpoint gdedupe (seen : list K) (es : list grec) : list grec :=
  match es with
  | [] => []
  | e :: t => if existsb (keqb (fst e)) seen then gdedupe seen t
              else e :: gdedupe (fst e :: seen) t
  end.

Definition glive (e : grec) : list (K * V) :=
  match snd e with Some v => [(fst e, v)] | None => [] end.

Definition gls (es : list grec) : list (K * V) := flat_map glive (gdedupe [] (rev es)).

Fixpoint first_match (k : K) (es : list grec) : option (option V) :=
  match es with
  | [] => None
  | e :: t => if keqb (fst e) k then Some (snd e) else first_match k t
  end.

Lemma gfind_app_one k es e :
  gfind k (es ++ [e]) = if keqb (fst e) k then snd e else gfind k es.
Proof. unfold gfind. rewrite fold_left_app. reflexivity. Qed.

Lemma gfind_first_match k es :
  gfind k es = match first_match k (rev es) with Some o => o | None => None end.
Proof.
  induction es as [|e es IH] using rev_ind; [reflexivity|].
  rewrite gfind_app_one, rev_app_distr. simpl.
  destruct (keqb (fst e) k); [reflexivity|exact IH].
Qed.

Lemma existsb_keqb k seen : existsb (keqb k) seen = true <-> In k seen.
Proof.
  rewrite existsb_exists. split.
  - intros [x [Hx E]]. destruct (keqb_spec k x); [subst; auto|discriminate].
  - intros H. exists k. split; auto. destruct (keqb_spec k k); congruence.
Qed.

Lemma in_gdedupe seen es k o :
  In (k, o) (gdedupe seen es) <-> (~ In k seen /\ first_match k es = Some o).
Proof.
  revert seen. induction es as [|e t IH]; intros seen; simpl.
  - split; [tauto|intros [_ H]; discriminate].
  - destruct e as [k' o']. simpl.
    destruct (existsb (keqb k') seen) eqn:Ex.
    + apply existsb_keqb in Ex. rewrite IH.
      destruct (keqb_spec k' k); [subst; tauto|tauto].
    + assert (~ In k' seen) as Hn by (intro H; apply existsb_keqb in H; congruence).
      simpl. rewrite IH. simpl.
      destruct (keqb_spec k' k) as [->|Hne].
      * split.
        -- intros [H|[H _]]; [inversion H; subst; auto|tauto].
        -- intros [_ H]. inversion H; subst. auto.
      * split.
        -- intros [H|[H1 H2]]; [inversion H; congruence|]. split; [tauto|auto].
        -- intros [H1 H2]. right. split; [|auto]. intros [E|E]; [congruence|tauto].
Qed.

Theorem gls_iff_gfind es k v : In (k, v) (gls es) <-> gfind k es = Some v.
Proof.
  unfold gls. rewrite in_flat_map, gfind_first_match. split.
  - intros [[k' o] [Hin Hv]]. unfold glive in Hv. simpl in Hv. apply in_gdedupe in Hin as [_ Hf].
    destruct o as [v'|]; [|contradiction]. destruct Hv as [Hv|[]]. inversion Hv; subst.
    rewrite Hf. reflexivity.
  - intros H. destruct (first_match k (rev es)) as [o|] eqn:Hf; [|discriminate]. subst o.
    exists (k, Some v). split; [apply in_gdedupe; split; [tauto|exact Hf]|simpl; auto].
Qed.

Lemma gdedupe_keys_nodup seen es :
  NoDup (map fst (gdedupe seen es)) /\ (forall k, In k (map fst (gdedupe seen es)) -> ~ In k seen).
Proof.
  revert seen. induction es as [|e t IH]; intros seen; simpl.
  - split; [constructor|intros k []].
  - destruct (existsb (keqb (fst e)) seen) eqn:Ex.
    + apply IH.
    + assert (~ In (fst e) seen) as Hn by (intro H; apply existsb_keqb in H; congruence).
      destruct (IH (fst e :: seen)) as [Hnd Hns]. simpl. split.
      * constructor; [|exact Hnd]. intro Hin. apply Hns in Hin. apply Hin. left. reflexivity.
      * intros k [<-|Hin]; [exact Hn|]. apply Hns in Hin. intro. apply Hin. right. assumption.
Qed.

Lemma map_fst_flat_glive l : incl (map fst (flat_map glive l)) (map fst l).
Proof.
  induction l as [|e t IH]; simpl; [intros x []|].
  unfold glive at 1. destruct (snd e); simpl.
  - intros x [<-|H]; [left; reflexivity|right; apply IH; exact H].
  - intros x H. right. apply IH. exact H.
Qed.

Lemma nodup_flat_glive l : NoDup (map fst l) -> NoDup (map fst (flat_map glive l)).
Proof.
  induction l as [|e t IH]; simpl; intros H; [constructor|].
  inversion H as [|? ? Hn Hnd]; subst. unfold glive at 1. destruct (snd e); simpl.
  - constructor; [|apply IH; exact Hnd]. intro Hin. apply Hn. apply (map_fst_flat_glive t). exact Hin.
  - apply IH. exact Hnd.
Qed.

Theorem gls_nodup es : NoDup (map fst (gls es)).
Proof. unfold gls. apply nodup_flat_glive. apply gdedupe_keys_nodup. Qed.

End Ls.
