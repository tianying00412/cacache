(* CrashIdxP.v — C04: a keyed write or a removal interrupted at any point (any step boundary, the index append torn
   at any byte length) leaves every lookup at exactly its previous or exactly its new value; the index area stays
   well-shaped (so every later history behaves per C05); a visible new entry has its content completely stored. *)
From CC Require Import Bytes Codec Utf8 Sri Record Fs Prog Api Crash BytesP FsP ProgP StepsP RecordP IndexP WriteP CommitP FormatP.
Local Open Scope N_scope.

Lemma exec_frame c f l :
  ~ may_touch c l ->
  lookup (snd (exec c f)) l = lookup f l /\ Forall (fun g => lookup g l = lookup f l) (mid_states c f).
Proof.
  intros Hn. split; [|apply Forall_forall; intros g Hg];
    (destruct (exec_effect c f _ l ltac:(eauto)) as [E|[Ht _]]; [exact E|contradiction]).
Qed.

Lemma crash_states_last {A} (p : prog A) f : In (snd (run p f)) (crash_states p f).
Proof.
  revert f. induction p as [a|c k IH]; intros f; cbn [run crash_states]; [left; reflexivity|].
  destruct (exec c f) as [r f1]. right. apply in_or_app. right. apply IH.
Qed.

Section Ci.
Variable hash : algo -> bytes -> bytes.
Hypothesis HL : HashLen hash.

(* no proper prefix of the JSON text carries the checksum of the whole text (a property of the hash on this one
   string: a theorem cannot exclude such a collision, so it is a hypothesis, visible in every statement) *)
Definition PrefixFree (text : bytes) : Prop :=
  forall p q, q <> [] -> text = p ++ q -> hash_entry hash p <> hash_entry hash text.

Lemma proper_prefixes_spec s p : In p (proper_prefixes s) -> exists q, p <> [] /\ q <> [] /\ s = p ++ q.
Proof.
  revert p. induction s as [|b s IH]; intros p; cbn [proper_prefixes]; [intros []|].
  destruct s as [|b2 s]; [intros []|]. intros [<-|Hin].
  - exists (b2 :: s). repeat split; discriminate.
  - apply in_map_iff in Hin as [p' [<- Hp']]. destruct (IH p' Hp') as [q [_ [Hq E]]].
    exists q. split; [discriminate|]. split; [exact Hq|]. rewrite E. reflexivity.
Qed.

Lemma no_tab_contrib p : (forall x, In x p -> Byte.eqb x tab = false) -> contrib hash p = [].
Proof. intros H. unfold contrib, entry_of_line. rewrite (split_no_sep tab p H). destruct (valid_utf8 p); reflexivity. Qed.

Lemma torn_contrib text p q :
  no_ctrl text -> PrefixFree text -> q <> [] -> record_line hash text = p ++ q -> contrib hash p = [].
Proof.
  intros Hc Hpf Hq E. destruct (no_ctrl_facts text Hc) as [_ [Htab _]].
  unfold record_line in E. symmetry in E. apply app_eq_app in E as [l [[E1 E2]|[E1 E2]]].
  - (* p = hash ++ l, tab :: text = l ++ q *)
    destruct l as [|t l].
    + rewrite app_nil_r in E1. subst p. apply no_tab_contrib. intros x Hx. apply (hex_encode_clean _ _ Hx).
    + cbn [app] in E2. inversion E2 as [[Et Etext]]. subst t. subst p.
      unfold contrib, entry_of_line.
      rewrite split_two; [|intros x Hx; apply (hex_encode_clean _ _ Hx)|intros x Hx; apply Htab; rewrite Etext; apply in_or_app; left; exact Hx].
      assert (bytes_eqb (hash_entry hash l) (hash_entry hash text) = false) as ->.
      { apply bytes_eqb_neq. apply (Hpf l q Hq Etext). }
      destruct (valid_utf8 _); reflexivity.
  - (* hash = p ++ l *)
    apply no_tab_contrib. intros x Hx. apply (hex_encode_clean (hash Sha256 text) x).
    change (hex_encode (hash Sha256 text)) with (hash_entry hash text). rewrite E1. apply in_or_app. left. exact Hx.
Qed.

(* appending any proper prefix of a record to a bucket changes no entry and keeps the bucket appendable *)
Lemma torn_append d m p :
  no_pending_cr d -> wf_rec hash m -> PrefixFree (encode_smeta m) -> In p (proper_prefixes (record_bytes hash m)) ->
  entries hash (d ++ p) = entries hash d /\ no_pending_cr (d ++ p).
Proof.
  intros Hd [Hc _] Hpf Hin. destruct (proper_prefixes_spec _ _ Hin) as (q & Hp & Hq & E).
  unfold record_bytes in E. destruct p as [|b p']; [congruence|]. injection E as <- El.
  destruct (entries_app_clean hash d p' Hd) as [H1 H2].
  { intros x Hx. apply (record_line_clean hash _ x Hc). rewrite El. apply in_or_app. left. exact Hx. }
  rewrite (torn_contrib _ p' q Hc Hpf Hq El), app_nil_r in H1. auto.
Qed.

(* trees with the same index meaning *)
Definition SameIdx (f c : fs) : Prop :=
  IndexInv c /\
  (forall k, entries hash (bucket_bytes hash c k) = entries hash (bucket_bytes hash f k)) /\
  (forall l, ~ is_index l -> lookup c l = lookup f l).

Lemma SameIdx_abs f c k : SameIdx f c -> abs_idx hash c k = abs_idx hash f k.
Proof. intros [_ [H _]]. unfold abs_idx. rewrite H. reflexivity. Qed.
Lemma SameIdx_refl f : IndexInv f -> SameIdx f f.
Proof. intros H. split; [exact H|]. split; reflexivity. Qed.
Lemma SameIdx_trans f g h : SameIdx f g -> SameIdx g h -> SameIdx f h.
Proof.
  intros [_ [A1 A2]] [B0 [B1 B2]]. split; [exact B0|].
  split; [intros k; exact (eq_trans (B1 k) (A1 k))|intros l Hl; exact (eq_trans (B2 l Hl) (A2 l Hl))].
Qed.

Lemma SameIdx_dirs f g : IndexInv f -> more_dirs f g -> SameIdx f g.
Proof.
  intros Hinv Hg. split; [exact (more_dirs_inv f g Hinv Hg)|]. split.
  - intros k. unfold bucket_bytes. rewrite (more_dirs_bucket _ (bucket_path_shape hash k) f g Hg). reflexivity.
  - intros l Hl. apply (more_dirs_outside f g l Hg). intros p E. apply Hl. exists p. exact E.
Qed.

Lemma SameIdx_bucket f g b :
  (exists x y z, b = [index_dir; x; y; z]) -> IndexInv g -> (forall l, l <> InCache b -> lookup g l = lookup f l) ->
  entries hash (bucket_at g b) = entries hash (bucket_at f b) -> SameIdx f g.
Proof.
  intros Hb Hi Hfr He. split; [exact Hi|]. split.
  - intros k. destruct (loc_eq_dec (InCache (bucket_path hash k)) (InCache b)) as [[= E]|N].
    + unfold bucket_bytes. rewrite E. exact He.
    + unfold bucket_bytes. rewrite (Hfr _ N). reflexivity.
  - intros l Hl. apply Hfr. intros ->. apply Hl. destruct Hb as (x & y & z & ->). eexists. reflexivity.
Qed.

Definition seq_prog {V} (cs : list sys) (v : V) : prog (res V) :=
  fold_right (fun c k => rbind (step_ok c) (fun _ => k)) (Ret (Ok v)) cs.
Definition is_err (r : ret) : bool := match r with RErr _ => true | _ => false end.

Lemma run_seq_cons {V} c cs (v : V) f :
  run (seq_prog (c :: cs) v) f =
  if is_err (fst (exec c f)) then (Err EIoErr, snd (exec c f)) else run (seq_prog cs v) (snd (exec c f)).
Proof.
  cbn [seq_prog fold_right]. unfold rbind, step_ok. cbn [bind run]. destruct (exec c f) as [r f1]. cbn [fst snd].
  destruct r; reflexivity.
Qed.

Lemma run_seq_ok {V} c cs (v : V) f f1 :
  exec c f = (ROk, f1) -> run (seq_prog (c :: cs) v) f = run (seq_prog cs v) f1.
Proof. intros E. rewrite run_seq_cons, E. reflexivity. Qed.

Lemma crash_seq_ok {V} c cs (v : V) f f1 :
  exec c f = (ROk, f1) ->
  crash_states (seq_prog (c :: cs) v) f = f :: mid_states c f ++ crash_states (seq_prog cs v) f1.
Proof. intros E. cbn [seq_prog fold_right]. unfold rbind, step_ok. cbn [bind crash_states]. rewrite E. reflexivity. Qed.

Lemma insert_is_seq key o now :
  insert hash key o now =
  seq_prog [MkdirAll (parent (bucket_path hash key)); CreateIfMissing (InCache (bucket_path hash key));
            Append (InCache (bucket_path hash key)) (record_bytes hash (smeta_of key o now))]
           (match o_sri o with Some i => i | None => deadbeef end).
Proof. reflexivity. Qed.

(* until the append has completed, the tree has the old index meaning: the mkdir and the open add directories and perhaps
   an empty bucket, and a torn append leaves a partial last line that the reader drops *)
Theorem insert_crash_atomic f key o now :
  IndexInv f -> wf_rec hash (smeta_of key o now) -> PrefixFree (encode_smeta (smeta_of key o now)) ->
  Forall (fun c => SameIdx f c \/ c = snd (run (insert hash key o now) f)) (crash_states (insert hash key o now) f).
Proof.
  intros Hinv Hwf Hpf. pose proof (bucket_path_shape hash key) as Hbk.
  destruct (index_mkdir _ Hbk f Hinv) as (f1 & E1 & Hpar & Hmk).
  assert (forall g, g = f1 \/ In g (mid_states (MkdirAll (parent (bucket_path hash key))) f) -> SameIdx f g) as S1
    by (intros g Hg; apply SameIdx_dirs; auto).
  destruct (index_create _ Hbk f1 (proj1 (S1 f1 (or_introl eq_refl))) Hpar) as (f2 & E2 & Hi2 & Hb2 & Hfr2).
  assert (SameIdx f f2) as S2.
  { apply (SameIdx_trans f f1); [apply S1; left; reflexivity|].
    apply (SameIdx_bucket f1 f2 _ Hbk Hi2 Hfr2). unfold bucket_at. rewrite Hb2. reflexivity. }
  pose proof (exec_append f2 _ _ (record_bytes hash (smeta_of key o now)) Hb2) as E3.
  rewrite insert_is_seq, (run_seq_ok _ _ _ _ _ E1), (run_seq_ok _ _ _ _ _ E2), (run_seq_ok _ _ _ _ _ E3),
    (crash_seq_ok _ _ _ _ _ E1), (crash_seq_ok _ _ _ _ _ E2), (crash_seq_ok _ _ _ _ _ E3).
  cbn [seq_prog fold_right run snd crash_states mid_states app]. rewrite Hb2.
  constructor; [left; apply SameIdx_refl; exact Hinv|].
  apply Forall_app. split; [apply Forall_forall; intros g Hg; left; apply S1; right; exact Hg|].
  constructor; [left; apply S1; left; reflexivity|]. constructor; [left; exact S2|].
  apply Forall_app. split; [|constructor; [right; reflexivity|constructor]].
  apply Forall_forall. intros g Hg. apply in_map_iff in Hg as (p & <- & Hp). left. apply (SameIdx_trans f f2 _ S2).
  destruct (bucket_file _ Hbk f2 _ Hi2 Hb2) as (d & [= <-] & Hd). destruct (torn_append _ _ p Hd Hwf Hpf Hp) as [T1 T2].
  apply (SameIdx_bucket f2 _ _ Hbk).
  - apply (IndexInv_update_bucket _ Hbk); assumption.
  - intros l Hl. apply lookup_update_neq. congruence.
  - unfold bucket_at. rewrite lookup_update_eq, Hb2. exact T1.
Qed.

(* the same in terms of lookups: at every crash state of an index insert / tombstone, every key is at its old value, or
   every key is at its value after the complete operation; the index area is well-shaped (so every later history behaves
   per C05) and no location outside the index area has changed *)
Corollary insert_crash_lookups f key o now :
  IndexInv f -> wf_rec hash (smeta_of key o now) -> wf_sri_opt o -> PrefixFree (encode_smeta (smeta_of key o now)) ->
  Forall (fun c => IndexInv c /\ (forall l, ~ is_index l -> lookup c l = lookup f l) /\
                   ((forall k, abs_idx hash c k = abs_idx hash f k) \/
                    (forall k, abs_idx hash c k = if bytes_eqb k key then new_entry key o now else abs_idx hash f k)))
         (crash_states (insert hash key o now) f).
Proof.
  intros Hinv Hwf Hs Hpf. eapply Forall_impl; [|exact (insert_crash_atomic f key o now Hinv Hwf Hpf)].
  intros c [S| ->].
  - destruct S as [Hi [He Hn]]. split; [exact Hi|]. split; [exact Hn|]. left. intros k. unfold abs_idx. rewrite He. reflexivity.
  - destruct (insert_abs hash f key o now Hinv Hwf Hs) as [Hi [_ [Habs Hfr]]]. split; [exact Hi|]. split; [|right; exact Habs].
    intros l Hl. apply Hfr. intros p E. apply Hl. exists p. exact E.
Qed.

Lemma close_step_noidx w c : tmpfile (w_tmp w) -> close_step hash w c -> touches (fun l => ~ is_index l) c.
Proof.
  intros Ht H l Hl Hi. destruct (close_step_touches hash w c HL H l Hl) as [->|[Hin| ->]].
  - exact (index_not_tmp _ Hi (or_intror Ht)).
  - exact (index_not_content l Hi (content_parents _ _ _ _ l Hin)).
  - exact (index_not_content _ Hi (ex_intro _ _ eq_refl)).
Qed.

Theorem commit_keyed_crash f w now key final :
  WInv f w -> CacheInv f -> w_key w = Some key ->
  declared_ok (w_opts w) (sri_of hash (w_algo w) (w_data w)) = Some final ->
  size_ok (w_opts w) (lenN (w_data w)) = true ->
  let o' := commit_opts (w_opts w) final (lenN (w_data w)) in
  wf_rec hash (smeta_of key o' now) -> parse_entry_sri (sri_text final) = Some final ->
  PrefixFree (encode_smeta (smeta_of key o' now)) ->
  Forall (fun c =>
            IndexInv c /\
            (forall k, k <> key -> abs_idx hash c k = abs_idx hash f k) /\
            (abs_idx hash c key = abs_idx hash f key \/
             (abs_idx hash c key = new_entry key o' now /\
              lookup c (InCache (cpath hash (w_algo w) (w_data w))) = Some (File (w_data w)))))
         (crash_states (commit hash w now) f).
Proof.
  intros Hw Hinv Hk Hd Hs o' Hwf Hps Hpf.
  (* publishing the content does not touch the index area *)
  destruct (untouched_crash is_index (close_writer hash w) f) as [Hall Hfin].
  { apply (all_steps_ok (touches (fun l => ~ is_index l))); [auto|]. exact (all_steps_impl _ _ _ (fun c => close_step_noidx w c (proj1 Hw)) (close_writer_steps hash w)). }
  destruct (close_writer_inv hash HL f w Hw Hinv) as (f1 & Hclose & (Hi1 & _) & Hcp & _).
  rewrite Hclose in Hfin. cbn [snd] in Hfin. pose proof (abs_idx_frame hash f f1 Hfin) as Habs1.
  unfold commit, rbind. apply crash_states_bind. split.
  - eapply Forall_impl; [|exact Hall]. intros c Hc. cbn beta in Hc. pose proof (abs_idx_frame hash f c Hc) as Hac.
    split; [exact (IndexInv_frame f c (proj1 Hinv) Hc)|]. split; [intros k _; apply Hac|left; apply Hac].
  - rewrite Hclose. cbn [fst snd].
    pose proof (commit_rest_eq hash w now (sri_of hash (w_algo w) (w_data w))) as Erest. cbv zeta in Erest. rewrite Erest.
    destruct Hw as (_ & Hwr & _). rewrite <- Hwr in Hs. rewrite (commit_rest_accept hash w now _ final Hd Hs), Hk, Hwr. fold o'.
    assert (wf_sri_opt o') as Hso by (intros i [= <-]; exact Hps).
    eapply Forall_impl; [|exact (insert_crash_lookups f1 key o' now Hi1 Hwf Hso Hpf)].
    intros c (Hic & Hnon & [Hold|Hnew]); (split; [exact Hic|]).
    + split; [intros k _|left]; rewrite Hold; apply Habs1.
    + split; [intros k Hne; rewrite Hnew, (proj2 (bytes_eqb_neq k key) Hne); apply Habs1|].
      right. split; [rewrite Hnew, bytes_eqb_refl; reflexivity|].
      rewrite Hnon; [exact Hcp|]. intros H. exact (index_not_content _ H (ex_intro _ _ eq_refl)).
Qed.

(* removal: the tombstone is an index insert *)
Theorem delete_crash f key now :
  IndexInv f -> wf_rec hash (smeta_of key wopts0 now) -> PrefixFree (encode_smeta (smeta_of key wopts0 now)) ->
  Forall (fun c => IndexInv c /\ (forall l, ~ is_index l -> lookup c l = lookup f l) /\
                   ((forall k, abs_idx hash c k = abs_idx hash f k) \/
                    (forall k, abs_idx hash c k = if bytes_eqb k key then None else abs_idx hash f k)))
         (crash_states (delete hash key now) f).
Proof.
  intros Hinv Hwf Hpf.
  pose proof (insert_crash_lookups f key wopts0 now Hinv Hwf (fun i Hi => ltac:(discriminate Hi)) Hpf) as H.
  unfold delete, rbind. apply crash_states_bind. split; [exact H|].
  rewrite Forall_forall in H. pose proof (H _ (crash_states_last _ f)) as Hl.
  destruct (fst (run (insert hash key wopts0 now) f)); (constructor; [exact Hl|constructor]).
Qed.

End Ci.
