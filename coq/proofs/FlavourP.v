(* FlavourP.v — the sync and async families of entry points are observationally the same in the model.
   The model has flavour-specific code exactly where the Rust sources differ: the size handed to the content
   writer (keyed async writers never map the temp file) and the options of the one-shot writes. *)
From CC Require Import Bytes Sri Record Fs Prog Api Sess BytesP ProgP IndexP WriteP CommitP.
Local Open Scope N_scope.

Section Fl.
Variable hash : algo -> bytes -> bytes.

Definition reflavour (fl : flavour) (o : op) : op :=
  match o with
  | OWrite _ a k d => OWrite fl a k d
  | OWriteHash _ a d => OWriteHash fl a d
  | OOpen _ w k o => OOpen fl w k o
  | OInsert _ k o => OInsert fl k o
  | ODelete _ k => ODelete fl k
  | OFind _ k => OFind fl k
  | ORead _ k => ORead fl k
  | OReadHash _ i => OReadHash fl i
  | OROpen _ r b => OROpen fl r b
  | OExtract x _ c b d => OExtract x fl c b d
  | OExists _ i => OExists fl i
  | ORemove _ k => ORemove fl k
  | ORemoveHash _ i => ORemoveHash fl i
  | ORemoveFully _ k => ORemoveFully fl k
  | OClear _ => OClear fl
  | other => other
  end.

(* operations whose model program mentions the flavour at all *)
Definition fl_sensitive (o : op) : bool :=
  match o with
  | OWrite _ _ _ _ => true
  | OOpen _ _ (Some _) _ => true
  | _ => false
  end.

Lemma content_size_by_hash fl o : content_size fl None o = o_size o.
Proof. destruct fl; reflexivity. Qed.

Lemma open_writer_by_hash fl fl' o : open_writer fl None o = open_writer fl' None o.
Proof. unfold open_writer. rewrite !content_size_by_hash. reflexivity. Qed.

Theorem write_hash_flavour fl fl' a d : write_hash hash fl a d = write_hash hash fl' a d.
Proof. unfold write_hash, oneshot. rewrite (open_writer_by_hash fl fl'). reflexivity. Qed.

(* every operation except keyed writes: the step function ignores the flavour *)
Theorem step_flavour_blind s o now fl :
  fl_sensitive o = false -> step hash s (reflavour fl o) now = step hash s o now.
Proof.
  destruct o; cbn [fl_sensitive reflavour]; intros H; try reflexivity; try discriminate.
  - cbn [step]. rewrite (write_hash_flavour fl fl0). reflexivity.
  - destruct key; [discriminate|]. cbn [step]. rewrite (open_writer_by_hash fl fl0). reflexivity.
Qed.

(* keyed one-shot writes: write_sync declares no size, async write declares the data length; the keyed async
   writer never maps, the sync one has nothing to map: the two programs run identically on EVERY tree *)
Lemma open_writer_keyed_plain fl key o f :
  (fl = Async \/ o_size o = None) ->
  run (open_writer fl (Some key) o) f =
  let '(r1, f1) := run (step_ok (MkdirAll tmp_dir)) f in
  match r1 with
  | Ok _ =>
      let '(r2, f2) := exec CreateTmp f1 in
      match r2 with
      | RName n => (Ok (mkW (Some key) o (match o_algo o with Some a => a | None => Sha256 end)
                            (InCache (tmp_dir ++ [n])) None 0 0 []), f2)
      | RErr _ => (Err EIoErr, f2)
      | _ => (Stuck, f2)
      end
  | Err e => (Err e, f1) | Panic => (Panic, f1) | Hang => (Hang, f1) | Stuck => (Stuck, f1)
  end.
Proof.
  intros Hfl. unfold open_writer. unfold rbind at 1. rewrite run_bind.
  destruct (run (step_ok (MkdirAll tmp_dir)) f) as [r1 f1]. destruct r1; try reflexivity.
  cbn [run]. destruct (exec CreateTmp f1) as [r2 f2]. destruct r2; try reflexivity.
  assert (content_size fl (Some key) o = None) as ->; [|reflexivity].
  destruct Hfl as [->|H]; [reflexivity|]. destruct fl; [exact H|reflexivity].
Qed.

(* the writer with another declared size: the size plays no part before the commit *)
Definition with_size (s : option N) (w : wstate) : wstate :=
  let o := w_opts w in
  mkW (w_key w) (mkWopts (o_algo o) (o_sri o) s (o_time o) (o_meta o) (o_raw o)) (w_algo w) (w_tmp w) (w_map w) (w_pos w)
      (w_written w) (w_data w).

Lemma write_chunk_with_size s w d f :
  run (write_chunk (with_size s w) d) f =
  let '(r, f1) := run (write_chunk w d) f in (match r with Ok w1 => Ok (with_size s w1) | other => lift_err other end, f1).
Proof.
  unfold write_chunk. cbn [with_size w_map w_pos w_tmp w_key w_opts w_algo w_written w_data].
  destruct (w_map w) as [sz|]; [destruct (w_pos w + lenN d <=? sz)|]; unfold rbind; rewrite !run_bind.
  - destruct (run (step_ok (MmapStore (w_tmp w) (w_pos w) d)) f) as [[] f1]; reflexivity.
  - destruct (run (step_ok (Truncate (w_tmp w) (w_pos w))) f) as [[] f1]; try reflexivity. rewrite !run_bind.
    destruct (run (step_ok (WriteAppend (w_tmp w) d)) f1) as [[] f2]; reflexivity.
  - destruct (run (step_ok (WriteAppend (w_tmp w) d)) f) as [[] f1]; reflexivity.
Qed.

(* a declared size that is the truth changes nothing in the commit: the check passes, the entry records the same size *)
Lemma commit_with_size w now f :
  o_size (w_opts w) = None -> run (commit hash (with_size (Some (w_written w)) w) now) f = run (commit hash w now) f.
Proof.
  intros Hz. unfold commit, rbind. rewrite !run_bind. change (close_writer hash (with_size _ w)) with (close_writer hash w).
  destruct (run (close_writer hash w) f) as [[a| | | |] f1]; try reflexivity.
  cbn [with_size w_opts w_key w_written o_sri o_size o_algo o_time o_meta o_raw]. rewrite Hz, N.eqb_refl. reflexivity.
Qed.

Theorem write_flavour a key data now f :
  run (write hash Async a key data now) f = run (write hash Sync a key data now) f.
Proof.
  unfold write, oneshot. unfold rbind at 1. match goal with |- _ = run (rbind _ _) _ => unfold rbind at 1 end. rewrite !run_bind.
  rewrite (open_writer_keyed_plain Async key (write_opts Async a data) f (or_introl eq_refl)).
  rewrite (open_writer_keyed_plain Sync key (write_opts Sync a data) f (or_intror eq_refl)).
  destruct (run (step_ok (MkdirAll tmp_dir)) f) as [r1 f1]. destruct r1; try reflexivity.
  destruct (exec CreateTmp f1) as [r2 f2]. destruct r2; try reflexivity.
  cbn [write_opts o_algo].
  set (w := mkW (Some key) (mkWopts (Some a) None None None None None) a (InCache (tmp_dir ++ [n])) None 0 0 []).
  change (mkW _ _ _ _ _ _ _ _) with (with_size (Some (lenN data)) w).
  destruct data as [|b data']; [exact (commit_with_size w now f2 eq_refl)|]. set (data := b :: data').
  rewrite !run_bind, write_chunk_with_size.
  (* bytes written = length of the one chunk *)
  assert (forall w1, fst (run (write_chunk w data) f2) = Ok w1 -> o_size (w_opts w1) = None /\ w_written w1 = lenN data) as Hw.
  { unfold write_chunk. cbn [w_map w]. unfold rbind. rewrite run_bind.
    destruct (run (step_ok (WriteAppend (w_tmp w) data)) f2) as [[] f3]; cbn [run fst]; intros w1 E; inversion E. split; reflexivity. }
  destruct (run (write_chunk w data) f2) as [[w1| | | |] f3]; try reflexivity.
  destruct (Hw w1 eq_refl) as [Hz <-]. exact (commit_with_size w1 now f3 Hz).
Qed.

Lemma meta_ext (m m' : meta) :
  m_key m = m_key m' -> m_sri m = m_sri m' -> m_size m = m_size m' -> m_time m = m_time m' ->
  m_metadata m = m_metadata m' -> m_raw m = m_raw m' -> m = m'.
Proof. destruct m, m'. cbn. intros; subst; reflexivity. Qed.

(* streamed keyed writers (the sync one maps its temp file when a size <= 1 MiB is declared, the async one never
   does): same answer, same lookups for every key, same bytes read back *)
Theorem stream_keyed_flavour (HL : HashLen hash) f key o cs now :
  CacheInv f -> o_sri o = None -> size_ok o (lenN (List.concat cs)) = true ->
  let data := List.concat cs in
  wf_rec hash (smeta_of key (commit_opts o (sri_of hash (algo_of o) data) (lenN data)) now) ->
  let fS := snd (run (stream_write hash Sync (Some key) o cs now) f) in
  let fA := snd (run (stream_write hash Async (Some key) o cs now) f) in
  fst (run (stream_write hash Sync (Some key) o cs now) f) = fst (run (stream_write hash Async (Some key) o cs now) f) /\
  (forall k, abs_idx hash fS k = abs_idx hash fA k) /\
  run (read hash key) fS = (Ok data, fS) /\ run (read hash key) fA = (Ok data, fA) /\
  CacheInv fS /\ CacheInv fA.
Proof.
  intros Hinv Hsri Hsz data Hwf fS fA.
  destruct (stream_write_keyed_roundtrip hash HL f Sync key o cs now Hinv Hsri Hsz Hwf) as [HrS [HiS [HreadS [_ [HoS [mS [HfS HmS]]]]]]].
  destruct (stream_write_keyed_roundtrip hash HL f Async key o cs now Hinv Hsri Hsz Hwf) as [HrA [HiA [HreadA [_ [HoA [mA [HfA HmA]]]]]]].
  fold fS in HiS, HreadS, HoS, HfS. fold fA in HiA, HreadA, HoA, HfA.
  split; [rewrite HrS, HrA; reflexivity|]. split; [|auto].
  intros k. destruct (bytes_eqb k key) eqn:E.
  - apply bytes_eqb_eq in E. subst k.
    rewrite (find_run hash fS key (proj1 HiS)) in HfS. rewrite (find_run hash fA key (proj1 HiA)) in HfA.
    assert (abs_idx hash fS key = Some mS) as -> by congruence.
    assert (abs_idx hash fA key = Some mA) as -> by congruence. f_equal.
    destruct HmS as [S1 [S2 [S3 [S4 [S5 S6]]]]]. destruct HmA as [A1 [A2 [A3 [A4 [A5 A6]]]]]. apply meta_ext; congruence.
  - apply bytes_eqb_neq in E. rewrite (HoS k E), (HoA k E). reflexivity.
Qed.

(* every operation except opening a KEYED streamed writer (the async one ignores the declared size: no mapping) *)
Definition fl_free (o : op) : bool := match o with OOpen _ _ (Some _) _ => false | _ => true end.

Lemma step_any_flavour s o now fl : fl_free o = true -> step hash s (reflavour fl o) now = step hash s o now.
Proof.
  intros Hf. destruct (fl_sensitive o) eqn:E; [|apply step_flavour_blind; exact E].
  destruct o; cbn [fl_sensitive fl_free] in *; try discriminate.
  - cbn [reflavour step]. unfold runv. destruct fl, fl0; try reflexivity; [rewrite <- write_flavour|rewrite write_flavour]; reflexivity.
  - destruct key; discriminate.
Qed.

(* any assignment of sync / async to the calls of a session gives the same answers and the same final state *)
Theorem run_ops_any_flavour (g : op -> flavour) ops : forall s i,
  forallb fl_free ops = true -> run_ops hash s (map (fun o => reflavour (g o) o) ops) i = run_ops hash s ops i.
Proof.
  induction ops as [|o ops IH]; intros s i H; cbn [map run_ops forallb] in *; [reflexivity|].
  apply andb_true_iff in H as [H1 H2]. rewrite (step_any_flavour s o (pseudo_now i) (g o) H1).
  destruct (step hash s o (pseudo_now i)) as [r s']. rewrite (IH s' (i + 1) H2). reflexivity.
Qed.

End Fl.
