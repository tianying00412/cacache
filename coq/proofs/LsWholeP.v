(* LsWholeP.v — C10 for the whole cache: the listing program (walk of index-v5, every bucket read and reduced) yields
   exactly the entries that lookups find. *)
From CC Require Import Bytes Sri Record Fs Prog Api BytesP FsP ProgP RecordP IndexP RemoveP.
From Coq Require Import Lia.

Section LW.
Variable hash : algo -> bytes -> bytes.

(* every record sits in the bucket of its key (true of everything the API writes; a record planted by hand in a foreign
   bucket is listed by the walk but not found by a lookup of its key: outside the property) *)
Definition BucketPlacement (f : fs) : Prop :=
  forall a b c d, lookup f (InCache [index_dir; a; b; c]) = Some (File d) ->
    forall e, In e (entries hash d) -> bucket_path hash (sm_key e) = [index_dir; a; b; c].
Definition NoDeep (f : fs) : Prop :=
  forall p n, lookup f (InCache (index_dir :: p)) = Some n -> (List.length p <= 3)%nat.

Lemma ls_buckets_run (bs : list loc) f :
  (forall l, In l bs -> exists d, lookup f l = Some (File d)) ->
  run (ls_buckets hash bs) f =
  (flat_map (fun l => match lookup f l with Some (File d) => map LMeta (ls_entries (entries hash d)) | _ => [] end) bs, f).
Proof.
  induction bs as [|b bs IH]; intros Hall; [reflexivity|].
  cbn [ls_buckets flat_map]. rewrite run_bind. unfold bucket_entries. cbn [run].
  destruct (Hall b (or_introl eq_refl)) as [d Hd]. rewrite (exec_readfile_file f b d Hd). cbn [run]. rewrite Hd.
  rewrite run_bind, IH by (intros l Hl; apply Hall; right; exact Hl). reflexivity.
Qed.

Lemma ls_entries_key es m : In m (ls_entries es) -> exists e, In e es /\ sm_key e = m_key m.
Proof.
  intros H. apply ls_iff_find in H. revert H. induction es as [|e es IH] using rev_ind; [discriminate|].
  rewrite find_in_app. unfold find_step. setoid_rewrite in_app_iff. destruct (bytes_eqb (sm_key e) (m_key m)) eqn:Ek.
  - intros _. exists e. split; [right; left; reflexivity|apply bytes_eqb_eq; exact Ek].
  - intros H. destruct (IH H) as (e' & Hin & Hk). exists e'. split; [left; exact Hin|exact Hk].
Qed.

Lemma nodup_in_lookup f l n : NoDupKeys f -> In (l, n) f -> lookup f l = Some n.
Proof.
  unfold NoDupKeys. induction f as [|[l' n'] f IH]; intros Hnd Hin; [destruct Hin|].
  cbn [map fst] in Hnd. inversion Hnd as [|? ? Hni Hnd']; subst. rewrite lookup_cons. destruct Hin as [E|Hin].
  - inversion E; subst. rewrite loc_eqb_refl. reflexivity.
  - destruct (loc_eqb l' l) eqn:El; [|apply IH; assumption]. apply loc_eqb_eq in El. subst l'.
    exfalso. apply Hni. apply in_map_iff. exists (l, n). split; [reflexivity|exact Hin].
Qed.

Theorem ls_whole f :
  NoDupKeys f -> IndexInv f -> NoDeep f -> BucketPlacement f -> is_dir f [index_dir] = true ->
  exists items, run (ls hash) f = (Ok items, f) /\
    (forall it, In it items -> exists m, it = LMeta m) /\
    (forall m, In (LMeta m) items <-> abs_idx hash f (m_key m) = Some m).
Proof.
  intros Hnk Hinv Hnd Hbp Hd. unfold ls. cbn [run]. unfold exec.
  set (walk := map fst (filter (fun ln => strictly_under [index_dir] (fst ln) && match snd ln with Dir => false | _ => true end) f)).
  (* every walked location is a bucket file *)
  assert (forall l, In l walk -> exists a b c d, l = InCache [index_dir; a; b; c] /\ lookup f l = Some (File d)) as Hwalk.
  { intros l Hl. unfold walk in Hl. apply in_map_iff in Hl as [[l' n] [<- Hin]]. apply filter_In in Hin as [Hin Hc]. cbn [fst snd] in *.
    apply andb_true_iff in Hc as [Hu Hn]. destruct l' as [q|e]; [|discriminate]. cbn [strictly_under] in Hu.
    apply andb_true_iff in Hu as [Hpre Hne]. destruct q as [|x q]; [discriminate|]. cbn [is_prefix] in Hpre.
    apply andb_true_iff in Hpre as [Hx _]. apply bytes_eqb_eq in Hx. subst x.
    pose proof (nodup_in_lookup f _ _ Hnk Hin) as El.
    pose proof (Hnd q n El) as Hlen. destruct (Hinv q n El) as [H2 H3].
    destruct q as [|a [|b [|c [|? ?]]]]; cbn [List.length] in *; [rewrite H2 in Hn by lia; discriminate..| |lia].
    destruct (H3 eq_refl) as (d & -> & _). exists a, b, c, d. split; [reflexivity|exact El]. }
  (* and every bucket file is walked *)
  assert (forall a b c d, lookup f (InCache [index_dir; a; b; c]) = Some (File d) -> In (InCache [index_dir; a; b; c]) walk) as Hall.
  { intros a b c d Hl. unfold walk. apply in_map_iff. exists (InCache [index_dir; a; b; c], File d). split; [reflexivity|].
    apply filter_In. split; [apply lookup_in; exact Hl|]. cbn [fst snd strictly_under is_prefix]. rewrite bytes_eqb_refl. reflexivity. }
  rewrite Hd. fold walk. rewrite run_bind, ls_buckets_run by (intros l Hl; destruct (Hwalk l Hl) as [a [b [c [d [_ H]]]]]; eauto). cbn [run].
  eexists. split; [reflexivity|]. split.
  - intros it Hit. apply in_flat_map in Hit as [l [Hl Hit]]. destruct (lookup f l) as [[d| |t]|]; try destruct Hit.
      apply in_map_iff in Hit as [m [<- _]]. eauto.
  - intros m. split.
    + intros Hit. apply in_flat_map in Hit as [l [Hl Hit]]. destruct (Hwalk l Hl) as [a [b [c [d [-> Hld]]]]]. rewrite Hld in Hit.
        apply in_map_iff in Hit as [m' [E Hm']]. inversion E; subst m'.
        destruct (ls_entries_key _ _ Hm') as [e [He Hk]].
        pose proof (Hbp a b c d Hld e He) as Hpl. rewrite Hk in Hpl.
        unfold abs_idx, bucket_bytes. rewrite Hpl, Hld. apply ls_iff_find. exact Hm'.
    + intros Ha. unfold abs_idx, bucket_bytes in Ha. destruct (bucket_path_shape hash (m_key m)) as [a [b [c Eb]]]. rewrite Eb in Ha.
        destruct (lookup f (InCache [index_dir; a; b; c])) as [[d| |t]|] eqn:El; try discriminate.
        apply in_flat_map. exists (InCache [index_dir; a; b; c]). split; [apply (Hall a b c d El)|]. rewrite El.
        apply in_map. apply ls_iff_find. exact Ha.
Qed.

(* a cache without an index area (fresh, or just cleared): the walk fails and the listing is one error item — what the
   library's own test pins *)
Lemma ls_fresh f : is_dir f [index_dir] = false -> run (ls hash) f = (Ok [LErr EIoErr], f).
Proof. intros H. unfold ls. cbn [run]. unfold exec. rewrite H. reflexivity. Qed.

End LW.
