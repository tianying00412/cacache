(* CodecP.v — the base64 round trip [b64_decode (b64_encode l) = Some l] (standard alphabet, padding), and the length and
   alphabet of hex encodings. *)
From CC Require Import Bytes Codec BytesP.
From Coq Require Import Lia.
Local Open Scope N_scope.

Lemma b2n_bounded b : b2n b < 256.
Proof. pose proof (Byte.to_N_bounded b). unfold b2n. lia. Qed.

Lemma byte_of_to_N x : Byte.of_N (b2n x) = Some x.
Proof. apply Byte.of_to_N. Qed.

Lemma n2b_b2n b : n2b (b2n b) = b.
Proof. unfold n2b. rewrite byte_of_to_N. reflexivity. Qed.

Lemma hex_encode_all (p : byte -> bool) :
  forallb p (bs "0123456789abcdef") = true -> forall l, forallb p (hex_encode l) = true.
Proof.
  intros A. assert (forall n, p (hexd n) = true) as H.
  { intros n. rewrite forallb_forall in A. apply A.
    change (In (nth (N.to_nat n) (bs "0123456789abcdef") x30) (bs "0123456789abcdef")).
    destruct (nth_in_or_default (N.to_nat n) (bs "0123456789abcdef") x30) as [H| ->]; [exact H|left; reflexivity]. }
  induction l as [|b l IH]; [reflexivity|]. cbn [hex_encode flat_map hex_byte app forallb] in *. rewrite !H. exact IH.
Qed.

Lemma lenN_hex_encode l : lenN (hex_encode l) = 2 * lenN l.
Proof. induction l as [|x l IH]; [reflexivity|]. unfold hex_encode in *. cbn [flat_map hex_byte app lenN]. rewrite IH. cbn [lenN]. lia. Qed.

Lemma sextets_all (p : N -> bool) :
  forallb p (map N.of_nat (seq 0 64)) = true -> forall n, n < 64 -> p n = true.
Proof.
  intros A n H. rewrite forallb_forall in A. apply A, in_map_iff.
  exists (N.to_nat n). split; [apply N2Nat.id|]. apply in_seq. lia.
Qed.

Lemma dec6_enc6 n : n < 64 -> dec6 (enc6 n) = Some n.
Proof.
  intros H.
  apply (sextets_all (fun n => match dec6 (enc6 n) with Some m => m =? n | None => false end)) in H;
    [|reflexivity].
  destruct (dec6 (enc6 n)); [|discriminate]. apply N.eqb_eq in H. congruence.
Qed.

Lemma enc6_not_pad n : n < 64 -> Byte.eqb (enc6 n) pad = false.
Proof. intros H. apply negb_true_iff. revert n H. apply sextets_all. reflexivity. Qed.

Lemma bytes_ind3 (P : bytes -> Prop) :
  P [] -> (forall a, P [a]) -> (forall a b, P [a; b]) ->
  (forall a b c t, P t -> P (a :: b :: c :: t)) -> forall l, P l.
Proof.
  intros H0 H1 H2 H3.
  fix IH 1. intros [|a [|b [|c t]]]; [exact H0|exact (H1 a)|exact (H2 a b)|exact (H3 a b c t (IH t))].
Qed.

(* The sextets of one, two and three bytes.  [lia] is kept to linear facts: quotients and remainders
   go through their uniqueness lemmas, which is far cheaper to check than the division equations. *)
Lemma sextets8 a :
  let n := b2n a * 16 in
  n / 64 < 64 /\ n mod 64 < 64 /\ (n mod 64) mod 16 = 0 /\ n / 64 * 4 + n mod 64 / 16 = b2n a.
Proof.
  pose proof (b2n_bounded a). cbv zeta. rewrite (N.mul_comm (b2n a)).
  change 64 with (16 * 4). rewrite N.mul_mod_distr_l, N.div_mul_cancel_l by discriminate.
  rewrite (N.mul_comm 16 (_ mod 4)), N.mod_mul, N.div_mul by discriminate.
  repeat split; [apply N.div_lt_upper_bound; [discriminate|lia]| |].
  - pose proof (N.mod_lt (b2n a) 4). lia.
  - symmetry. rewrite N.mul_comm. apply N.div_mod'.
Qed.

Lemma sextets16 a b :
  let n := b2n a * 1024 + b2n b * 4 in
  n / 4096 < 64 /\ (n / 64) mod 64 < 64 /\ n mod 64 < 64 /\ (n mod 64) mod 4 = 0 /\
  n / 4096 * 4096 + (n / 64) mod 64 * 64 + n mod 64 = n /\ n / 1024 = b2n a /\ (n / 4) mod 256 = b2n b.
Proof.
  pose proof (b2n_bounded a). pose proof (b2n_bounded b). cbv zeta.
  set (n := b2n a * 1024 + b2n b * 4). repeat split; try (apply N.mod_lt; discriminate).
  - apply N.div_lt_upper_bound; [discriminate|lia].
  - replace n with (4 * (b2n a * 256 + b2n b)) by lia. change 64 with (4 * 16).
    rewrite N.mul_mod_distr_l, N.mul_comm by discriminate. apply N.mod_mul. discriminate.
  - change 4096 with (64 * 64). rewrite <- N.div_div by discriminate.
    pose proof (N.div_mod' n 64). pose proof (N.div_mod' (n / 64) 64). lia.
  - symmetry. apply (N.div_unique _ _ _ (b2n b * 4)); lia.
  - rewrite <- (N.div_unique n 4 (b2n a * 256 + b2n b) 0) by lia.
    symmetry. apply (N.mod_unique _ _ (b2n a)); lia.
Qed.

Lemma sextets24 n : n < 16777216 ->
  n / 262144 < 64 /\ (n / 4096) mod 64 < 64 /\ (n / 64) mod 64 < 64 /\ n mod 64 < 64 /\
  n / 262144 * 262144 + (n / 4096) mod 64 * 4096 + (n / 64) mod 64 * 64 + n mod 64 = n.
Proof.
  intros H. repeat split; try (apply N.mod_lt; discriminate).
  - apply N.div_lt_upper_bound; [discriminate|exact H].
  - change 262144 with (64 * (64 * 64)). change 4096 with (64 * 64). rewrite <- !N.div_div by discriminate.
    pose proof (N.div_mod' n 64). pose proof (N.div_mod' (n / 64) 64). pose proof (N.div_mod' (n / 64 / 64) 64).
    lia.
Qed.

Lemma octets24 a b c :
  let n := b2n a * 65536 + b2n b * 256 + b2n c in
  n < 16777216 /\ n / 65536 = b2n a /\ (n / 256) mod 256 = b2n b /\ n mod 256 = b2n c.
Proof.
  pose proof (b2n_bounded a). pose proof (b2n_bounded b). pose proof (b2n_bounded c). cbv zeta.
  repeat split; [lia|..].
  - symmetry. apply (N.div_unique _ _ _ (b2n b * 256 + b2n c)); lia.
  - rewrite <- (N.div_unique _ 256 (b2n a * 256 + b2n b) (b2n c)) by lia.
    symmetry. apply (N.mod_unique _ _ (b2n a)); lia.
  - symmetry. apply (N.mod_unique _ _ (b2n a * 256 + b2n b)); lia.
Qed.

Lemma b64_decode_group s0 s1 s2 s3 t r :
  s0 < 64 -> s1 < 64 -> s2 < 64 -> s3 < 64 -> b64_decode t = Some r ->
  b64_decode (enc6 s0 :: enc6 s1 :: enc6 s2 :: enc6 s3 :: t) =
  let n := s0 * 262144 + s1 * 4096 + s2 * 64 + s3 in
  match Byte.of_N (n / 65536), Byte.of_N ((n / 256) mod 256), Byte.of_N (n mod 256) with
  | Some a, Some b, Some c => Some (a :: b :: c :: r) | _, _, _ => None end.
Proof.
  intros H0 H1 H2 H3 Ht. destruct t as [|x xs].
  - injection Ht as <-. cbn [b64_decode]. rewrite !enc6_not_pad, !dec6_enc6 by assumption. reflexivity.
  - (* unfold [b64_decode] once, leaving the recursive call on [x :: xs] folded *)
    change (b64_decode (enc6 s0 :: enc6 s1 :: enc6 s2 :: enc6 s3 :: x :: xs))
      with (match dec6 (enc6 s0), dec6 (enc6 s1), dec6 (enc6 s2), dec6 (enc6 s3), b64_decode (x :: xs) with
            | Some s0, Some s1, Some s2, Some s3, Some r =>
                let n := s0 * 262144 + s1 * 4096 + s2 * 64 + s3 in
                match Byte.of_N (n / 65536), Byte.of_N ((n / 256) mod 256), Byte.of_N (n mod 256) with
                | Some a, Some b, Some c => Some (a :: b :: c :: r) | _, _, _ => None end
            | _, _, _, _, _ => None end).
    rewrite !dec6_enc6, Ht by assumption. reflexivity.
Qed.

Theorem b64_decode_encode l : b64_decode (b64_encode l) = Some l.
Proof.
  induction l as [|a|a b|a b c t IH] using bytes_ind3.
  - reflexivity.
  - cbn [b64_encode]. destruct (sextets8 a) as (A1 & A2 & A3 & A4). cbv zeta in *.
    cbn [b64_decode]. rewrite byte_eqb_refl, !dec6_enc6 by assumption.
    rewrite A3, A4, byte_of_to_N. reflexivity.
  - cbn [b64_encode]. destruct (sextets16 a b) as (A1 & A2 & A3 & A4 & A5 & A6 & A7). cbv zeta in *.
    cbn [b64_decode]. rewrite (enc6_not_pad _ A3), byte_eqb_refl, !dec6_enc6 by assumption.
    cbv zeta. rewrite A4, A5, A6, A7, !byte_of_to_N. reflexivity.
  - cbn [b64_encode]. destruct (octets24 a b c) as (Hn & R1 & R2 & R3). cbv zeta in *.
    destruct (sextets24 _ Hn) as (S0 & S1 & S2 & S3 & E).
    rewrite (b64_decode_group _ _ _ _ _ t S0 S1 S2 S3 IH). cbv zeta.
    rewrite E, R1, R2, R3, !byte_of_to_N. reflexivity.
Qed.

Corollary b64_encode_inj a b : b64_encode a = b64_encode b -> a = b.
Proof. intros H. apply (f_equal b64_decode) in H. rewrite !b64_decode_encode in H. congruence. Qed.
