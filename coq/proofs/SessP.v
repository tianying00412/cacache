(* SessP.v — invariants of whole sessions (C03 / C14 over histories): any sequence of API calls on one cache, with any
   number of writers open at the same time, their chunks interleaved, writes cancelled (OAbandon), writers dropped or
   committed in any order.  In every reachable state — and at every crash state of every call — each file under
   content-v2 carries the digest of its address, and every open writer's temp file holds exactly the bytes its digest
   covers.  Excluded: [clear] while writers are open and damage steps (they delete temp files under open writers), and the
   link_to family (a different writer type). *)
From CC Require Import Bytes Sri Fs Prog Api Crash Sess FsP ProgP StepsP WriteP CommitP TotalP CrashP CrashIdxP.
From Coq Require Import Lia.
Local Open Scope N_scope.

Section SP.
Variable hash : algo -> bytes -> bytes.
Hypothesis HL : HashLen hash.

(* the writer invariant without the byte counter (a cancelled write is stored but not acknowledged): it does not read
   [w_written], so [WInv0 f (with_written w n)] is [WInv0 f w] *)
Definition WInv0 (f : fs) (w : wstate) : Prop :=
  (exists n, w_tmp w = InCache [bs "tmp"; n]) /\
  exists d, lookup f (w_tmp w) = Some (File d) /\
    match w_map w with
    | Some sz => lenN d = sz /\ w_pos w = lenN (w_data w) /\ takeN (w_pos w) d = w_data w /\ w_pos w <= sz
    | None => d = w_data w
    end.

Lemma WInv_WInv0 f w : WInv f w -> WInv0 f w.
Proof. intros [Hn [_ H]]. split; assumption. Qed.
Lemma WInv0_norm f w : WInv0 f w -> WInv f (with_written w (lenN (w_data w))).
Proof. intros [Hn H]. split; [exact Hn|]. split; [reflexivity|exact H]. Qed.
Lemma WInv0_frame f g w : WInv0 f w -> lookup g (w_tmp w) = lookup f (w_tmp w) -> WInv0 g w.
Proof. intros [Hn [d [Hl Hm]]] E. split; [exact Hn|]. exists d. rewrite E. split; assumption. Qed.
Lemma winv0_tmpfile f w : WInv0 f w -> tmpfile (w_tmp w) /\ lookup f (w_tmp w) <> None.
Proof. intros [Hn [d [Hl _]]]. split; [exact Hn|congruence]. Qed.

Lemma with_written_id w : with_written w (w_written w) = w.
Proof. destruct w. reflexivity. Qed.

Lemma write_chunk_written w n d f :
  run (write_chunk (with_written w n) d) f =
  (rmap (fun w' => with_written w' (n + lenN d)) (fst (run (write_chunk w d) f)), snd (run (write_chunk w d) f)).
Proof.
  unfold write_chunk. cbn [with_written w_key w_opts w_algo w_tmp w_map w_pos w_written w_data].
  destruct (w_map w) as [sz|].
  - destruct (w_pos w + lenN d <=? sz); unfold rbind; rewrite !run_bind.
    + destruct (run (step_ok (MmapStore (w_tmp w) (w_pos w) d)) f) as [r f1]. destruct r; reflexivity.
    + destruct (run (step_ok (Truncate (w_tmp w) (w_pos w))) f) as [r f1]. destruct r; try reflexivity.
      cbn [fst snd]. rewrite !run_bind. destruct (run (step_ok (WriteAppend (w_tmp w) d)) f1) as [r2 f2]. destruct r2; reflexivity.
  - unfold rbind; rewrite !run_bind. destruct (run (step_ok (WriteAppend (w_tmp w) d)) f) as [r f1]. destruct r; reflexivity.
Qed.

Lemma write_chunk_ok0 f w d :
  WInv0 f w ->
  exists w' f', run (write_chunk w d) f = (Ok w', f') /\ WInv0 f' w' /\ w_tmp w' = w_tmp w /\
    w_data w' = w_data w ++ d /\ (forall l, l <> w_tmp w -> lookup f' l = lookup f l).
Proof.
  intros Hw. destruct (write_chunk_ok f _ d (WInv0_norm f w Hw)) as (w1 & f1 & Hr & Hw1 & (_ & _ & _ & Ht) & Hd & Hfr).
  exists (with_written w1 (w_written w + lenN d)), f1. split; [|exact (conj (WInv_WInv0 _ _ Hw1) (conj Ht (conj Hd Hfr)))].
  replace w with (with_written (with_written w (lenN (w_data w))) (w_written w)) at 1 by (destruct w; reflexivity).
  rewrite write_chunk_written, Hr. reflexivity.
Qed.

(* a step that names no temp file outside [T], except that it may create a fresh one *)
Definition tmp_within (T : loc -> Prop) (c : sys) : Prop := c = CreateTmp \/ touches (fun l => tmpfile l -> T l) c.

Lemma tmp_within_frame {A} T (p : prog A) f :
  steps_ok (fun c _ => tmp_within T c) p f ->
  forall l, tmpfile l -> lookup f l <> None -> ~ T l -> lookup (snd (run p f)) l = lookup f l.
Proof.
  intros Hp l Hl Hex HT. refine (run_invariant (fun g => lookup g l = lookup f l) _ _ p f eq_refl Hp).
  intros c g Hg [->|Hc].
  - unfold exec. destruct (is_dir g tmp_dir); [|exact Hg]. cbn [snd].
    rewrite lookup_update_neq; [exact Hg|]. intros <-. rewrite (fresh_absent g) in Hg. congruence.
  - rewrite <- Hg. apply exec_frame. intros Ht. exact (HT (Hc l Ht Hl)).
Qed.

(* the steps of a session call that acts on the temp files [T]: what they put under content-v2 matches its address, and
   they name no other temp file *)
Definition sess_step (T : loc -> Prop) (c : sys) (f : fs) : Prop := csafe hash c f /\ tmp_within T c.

(* the steps of calls that act for no writer (lookups, index appends, removals, extractions to a place outside the
   cache): nothing put under content-v2, nothing under tmp/ named *)
Definition call_step (c : sys) : Prop := csafe' c /\ touches (fun l => ~ is_tmp l) c.

Lemma call_step_sess T c f : call_step c -> sess_step T c f.
Proof. intros [H1 H2]. split; [apply csafe'_csafe; exact H1|]. right. intros l Hl Ht. destruct (H2 l Hl). right. exact Ht. Qed.

Lemma read_step_call c : read_step c -> call_step c.
Proof. intros H. split; [apply read_step_csafe'; exact H|apply read_step_touches; exact H]. Qed.

Lemma index_step_call key c : index_step (bucket_path hash key) c -> call_step c.
Proof. intros H. split; [exact (index_step_csafe' hash key c H)|]. intros l Hl. apply not_tmp. left. exact (index_step_index hash key c H l Hl). Qed.

Lemma unlink_step_call (R : loc -> Prop) c : (forall l, R l -> is_index l \/ is_content l) -> unlink_step R c -> call_step c.
Proof.
  intros HR H. split; [exact (remove_step_csafe' c (unlink_remove_step R c H))|].
  intros l Hl. apply not_tmp, HR. exact (unlink_step_touches R c H l Hl).
Qed.

Lemma extract_step_call e c : extract_step (Ext e) c -> call_step c.
Proof.
  intros H. assert (touches (eq (Ext e)) c) as Ht by exact (extract_step_touches _ c H).
  split; [|intros l Hl [E|[n E]]; rewrite <- (Ht l Hl) in E; discriminate E].
  apply touches_csafe'. intros l Hl [p E]. rewrite <- (Ht l Hl) in E. discriminate E.
Qed.

Lemma tmp_step_sess (T : loc -> Prop) t c f : tmpfile t -> T t -> tmp_step t c -> sess_step T c f.
Proof.
  intros Ht HT H. split; [exact (csafe'_csafe hash c f (tmp_step_csafe' t c (tmpfile_not_content t Ht) H))|].
  right. intros l Hl _. rewrite <- (tmp_step_touches t c H l Hl). exact HT.
Qed.

Lemma open_step_sess (T : loc -> Prop) c f : (forall t, T t -> tmpfile t) -> open_step_on T c -> sess_step T c f.
Proof.
  intros HT H. split.
  - exact (csafe'_csafe hash c f (open_step_csafe' c (open_step_on_impl T tmpfile c HT H))).
  - destruct c; cbn in H; try contradiction; [right|left; reflexivity|right|right]; intros l0 Hl Ht; cbn in Hl; subst; try exact H.
    destruct Hl as [<-|[]]. destruct Ht as [n E]. discriminate E.
Qed.

Lemma write_step_sess (T : loc -> Prop) a data key c f :
  (forall t, T t -> tmpfile t) -> write_step_on hash T a data key c f -> sess_step T c f.
Proof.
  intros HT H. split; [exact (write_step_csafe hash a data key c f (write_step_on_impl hash T tmpfile a data key c f HT H))|].
  destruct H as [[Ho|[(t & Ht & [Hs|Hs])|(k & _ & Hs)]] _].
  - exact (proj2 (open_step_sess T c f HT Ho)).
  - exact (proj2 (tmp_step_sess T t c f (HT t Ht) Ht Hs)).
  - right. intros l Hl Htl. destruct (publish_step_touches _ _ c Hs l Hl) as [->|Hc]; [exact Ht|].
    destruct (not_tmp l); [right|right; exact Htl]. destruct Hc as [Hc| ->]; [exact (content_parents _ _ _ _ l Hc)|unfold cpath; eexists; reflexivity].
  - right. intros l Hl Htl. destruct (not_tmp l); [left; exact (index_step_index hash k c Hs l Hl)|right; exact Htl].
Qed.


Definition SInv (s : sstate) : Prop :=
  ContentInv hash (s_fs s) /\
  (forall h ws, hget h (s_w s) = Some ws -> WInv0 (s_fs s) ws) /\
  (forall h1 h2 ws1 ws2, h1 <> h2 -> hget h1 (s_w s) = Some ws1 -> hget h2 (s_w s) = Some ws2 -> w_tmp ws1 <> w_tmp ws2).

(* the calls covered: everything except [clear] (it deletes the temp files of open writers), the link_to family (a
   different writer type) and the damage steps *)
Definition sess_op (o : op) : Prop :=
  match o with
  | OClear _ | OLinkTo _ _ _ | OLOpen _ _ _ _ _ _ | OLChunk _ _ | OLCommit _ | OLDrop _
  | DSet _ _ | DDel _ | DMkdir _ | DSymlink _ _ => False
  | _ => True
  end.

(* [SInv] reads of a state its tree and its writer table only.  The writers of [s'] are writers of [s], their temp files
   as they were: *)
Lemma sinv_sub s s' :
  SInv s -> ContentInv hash (s_fs s') ->
  (forall h ws, hget h (s_w s') = Some ws ->
     hget h (s_w s) = Some ws /\ lookup (s_fs s') (w_tmp ws) = lookup (s_fs s) (w_tmp ws)) ->
  SInv s'.
Proof.
  intros (_ & Hw & Hd) Hc Hsub. split; [exact Hc|]. split.
  - intros h ws Hh. destruct (Hsub h ws Hh) as [H0 E]. exact (WInv0_frame _ _ _ (Hw h ws H0) E).
  - intros h1 h2 ws1 ws2 Hne H1 H2. exact (Hd h1 h2 ws1 ws2 Hne (proj1 (Hsub _ _ H1)) (proj1 (Hsub _ _ H2))).
Qed.

(* a call runs [p]; it leaves the writers [wt], none of them on a temp file of [T] *)
Lemma sinv_run {A} s (p : prog A) T wt :
  SInv s -> steps_ok (sess_step T) p (s_fs s) ->
  (forall h ws, hget h wt = Some ws -> hget h (s_w s) = Some ws /\ ~ T (w_tmp ws)) ->
  SInv (mkS s (snd (run p (s_fs s))) wt (s_r s)) /\ Forall (ContentInv hash) (crash_states p (s_fs s)).
Proof.
  intros Hs Hp Hwt.
  destruct (content_inv_crash hash p (s_fs s) (proj1 Hs) (steps_ok_impl _ _ _ _ (fun c g H => proj1 H) Hp)) as [Hcr Hfin].
  split; [|exact Hcr]. apply (sinv_sub s); [exact Hs|exact Hfin|]. intros h ws Hh. destruct (Hwt h ws Hh) as [H0 HT].
  split; [exact H0|]. destruct (winv0_tmpfile _ _ (proj1 (proj2 Hs) h ws H0)) as [Ht Hex].
  exact (tmp_within_frame T p (s_fs s) (steps_ok_impl _ _ _ _ (fun c g H => proj2 H) Hp) _ Ht Hex HT).
Qed.

Lemma sinv_fresh {A} s (p : prog A) :
  SInv s -> steps_ok (sess_step (fresh_tmp (s_fs s))) p (s_fs s) ->
  SInv (mkS s (snd (run p (s_fs s))) (s_w s) (s_r s)) /\ Forall (ContentInv hash) (crash_states p (s_fs s)).
Proof.
  intros Hs Hp. apply (sinv_run s p (fresh_tmp (s_fs s))); [exact Hs|exact Hp|].
  intros h ws Hh. split; [exact Hh|]. intros [_ Hn]. exact (proj2 (winv0_tmpfile _ _ (proj1 (proj2 Hs) h ws Hh)) Hn).
Qed.

Lemma sinv_call {A} s (p : prog A) :
  SInv s -> all_steps call_step p ->
  SInv (mkS s (snd (run p (s_fs s))) (s_w s) (s_r s)) /\ Forall (ContentInv hash) (crash_states p (s_fs s)).
Proof. intros Hs Hp. exact (sinv_fresh s p Hs (all_steps_ok _ _ p (call_step_sess _) Hp (s_fs s))). Qed.

Lemma sinv_close {A} s h ws (p : prog A) :
  SInv s -> hget h (s_w s) = Some ws -> steps_ok (sess_step (eq (w_tmp ws))) p (s_fs s) ->
  SInv (mkS s (snd (run p (s_fs s))) (hdel h (s_w s)) (s_r s)) /\ Forall (ContentInv hash) (crash_states p (s_fs s)).
Proof.
  intros Hs Hh Hp. apply (sinv_run s p (eq (w_tmp ws))); [exact Hs|exact Hp|].
  intros h2 ws2 H2. apply hget_hdel in H2 as [Hne H2]. split; [exact H2|].
  exact (proj2 (proj2 Hs) h h2 ws ws2 (fun E => Hne (eq_sym E)) Hh H2).
Qed.

Lemma runv_snd {A} s (p : prog (res A)) g : snd (runv s p g) = mkS s (snd (run p (s_fs s))) (s_w s) (s_r s).
Proof. unfold runv. destruct (run p (s_fs s)). reflexivity. Qed.

Lemma sinv_hset s h ws f' :
  SInv s -> ContentInv hash f' -> WInv0 f' ws ->
  (forall h2 ws2, h2 <> h -> hget h2 (s_w s) = Some ws2 -> WInv0 f' ws2 /\ w_tmp ws2 <> w_tmp ws) ->
  SInv (mkS s f' (hset h ws (s_w s)) (s_r s)).
Proof.
  intros (_ & _ & Hd) Hc Hws Hoth.
  assert (forall h2 ws2, hget h2 (hset h ws (s_w s)) = Some ws2 ->
            h2 = h /\ ws2 = ws \/ h2 <> h /\ hget h2 (s_w s) = Some ws2) as Hcase.
  { intros h2 ws2. rewrite hget_hset. destruct (N.eqb_spec h h2) as [<-|Hne]; [intros E; inversion E; auto|].
    intros E. apply hget_hdel in E. right. exact E. }
  split; [exact Hc|]. split.
  - intros h2 ws2 H2. destruct (Hcase _ _ H2) as [[_ ->]|[Hne H0]]; [exact Hws|exact (proj1 (Hoth _ _ Hne H0))].
  - intros h1 h2 ws1 ws2 Hne H1 H2. destruct (Hcase _ _ H1) as [[-> ->]|[N1 G1]], (Hcase _ _ H2) as [[-> ->]|[N2 G2]].
    + contradiction.
    + intros E. exact (proj2 (Hoth _ _ N2 G2) (eq_sym E)).
    + exact (proj2 (Hoth _ _ N1 G1)).
    + exact (Hd _ _ _ _ Hne G1 G2).
Qed.

Lemma sinv_update_writer s h ws ws' f' :
  SInv s -> hget h (s_w s) = Some ws -> ContentInv hash f' -> WInv0 f' ws' -> w_tmp ws' = w_tmp ws ->
  (forall l, l <> w_tmp ws -> lookup f' l = lookup (s_fs s) l) ->
  SInv (mkS s f' (hset h ws' (s_w s)) (s_r s)).
Proof.
  intros Hs Hh Hc Hw' Et Hfr. apply sinv_hset; try assumption. intros h2 ws2 Hne H2.
  pose proof (proj2 (proj2 Hs) h2 h ws2 ws Hne H2 Hh) as Hd. rewrite Et.
  split; [exact (WInv0_frame _ _ _ (proj1 (proj2 Hs) h2 ws2 H2) (Hfr _ Hd))|exact Hd].
Qed.

Definition zones_kept (f f' : fs) : Prop := forall l, is_index l \/ is_content l -> lookup f' l = lookup f l.

(* one chunk through the writer [h]; the counter of the new writer state does not matter *)
Lemma chunk_sinv s h ws d :
  SInv s -> hget h (s_w s) = Some ws ->
  Forall (ContentInv hash) (crash_states (write_chunk ws d) (s_fs s)) /\
  exists w' f', run (write_chunk ws d) (s_fs s) = (Ok w', f') /\ zones_kept (s_fs s) f' /\
    forall n, SInv (mkS s f' (hset h (with_written w' n) (s_w s)) (s_r s)).
Proof.
  intros Hs Hh. pose proof (proj1 (proj2 Hs) _ _ Hh) as Hw. pose proof (proj1 (winv0_tmpfile _ _ Hw)) as Ht.
  destruct (content_inv_crash hash (write_chunk ws d) (s_fs s) (proj1 Hs)) as [Hcr Hfin].
  { apply (all_steps_ok (tmp_step (w_tmp ws))); [|apply write_chunk_steps].
    intros c g H. exact (proj1 (tmp_step_sess (eq (w_tmp ws)) _ c g Ht eq_refl H)). }
  split; [exact Hcr|]. destruct (write_chunk_ok0 (s_fs s) ws d Hw) as (w' & f' & Hr & Hw' & Et & _ & Hfr).
  exists w', f'. split; [exact Hr|]. split.
  - intros l Hl. apply Hfr. intros ->. exact (not_tmp _ Hl (or_intror Ht)).
  - intros n. rewrite Hr in Hfin. exact (sinv_update_writer s h ws (with_written w' n) f' Hs Hh Hfin Hw' Et Hfr).
Qed.

Lemma plain_chunk_sinv s h ws d :
  SInv s -> hget h (s_w s) = Some ws ->
  SInv (snd (plain_chunk s h ws d)) /\ zones_kept (s_fs s) (s_fs (snd (plain_chunk s h ws d))).
Proof.
  intros Hs Hh. destruct (chunk_sinv s h ws d Hs Hh) as (_ & w' & f' & Hr & Hq & Hs').
  unfold plain_chunk. rewrite Hr. split; [|exact Hq]. specialize (Hs' (w_written w')). rewrite with_written_id in Hs'. exact Hs'.
Qed.

Lemma start_abandoned_sinv s h ws d :
  SInv s -> hget h (s_w s) = Some ws ->
  SInv (snd (start_abandoned s h ws d)) /\ zones_kept (s_fs s) (s_fs (snd (start_abandoned s h ws d))).
Proof.
  intros Hs Hh. destruct (chunk_sinv s h ws d Hs Hh) as (_ & w' & f' & Hr & Hq & Hs').
  unfold start_abandoned. rewrite Hr. exact (conj (Hs' (w_written ws)) Hq).
Qed.

Lemma ack_sinv s h ws n : SInv s -> hget h (s_w s) = Some ws -> SInv (ack s h ws n).
Proof.
  intros Hs Hh. apply (sinv_update_writer s h ws); try reflexivity; try assumption.
  - exact (proj1 Hs).
  - exact (proj1 (proj2 Hs) _ _ Hh).
Qed.
Lemma ack_hget s h ws n : hget h (s_w (ack s h ws n)) = Some (with_written ws (w_written ws + n)).
Proof. unfold ack, mkS. cbn [s_w]. rewrite hget_hset, N.eqb_refl. reflexivity. Qed.

Definition feed_op (h : N) (d : bytes) (o : op) : Prop := o = OChunk h d \/ o = OWrite1 h d \/ o = OAbandon h d.

(* the chunk calls on writer [h] (write_all, one write(), a cancelled write), whatever answer the writer holds: each is a
   composition of four moves on that writer *)
Lemma feed_ind (P : sstate -> Prop) h :
  (forall s, P s -> P (clear_p s h)) ->
  (forall s ws n, P s -> hget h (s_w s) = Some ws -> P (ack s h ws n)) ->
  (forall s ws d, P s -> hget h (s_w s) = Some ws -> P (snd (plain_chunk s h ws d))) ->
  (forall s ws d, P s -> hget h (s_w s) = Some ws -> P (snd (start_abandoned s h ws d))) ->
  forall s d o now, feed_op h d o -> P s -> P (snd (step hash s o now)).
Proof.
  intros Hc Ha Hp Hb s d o now Ho Hs. pose proof (Hc s Hs) as Hs1.
  destruct Ho as [->|[->| ->]]; cbn [step]; (destruct (hget h (s_w s)) as [ws|] eqn:Eh; [|exact Hs]).
  - destruct (hget h (s_p s)) as [p|]; [|exact (Hp s ws d Hs Eh)].
    unfold write_all_pending. destruct d as [|b d]; [exact Hs|]. destruct p as [n|]; [|exact Hs1].
    destruct (n <=? lenN (b :: d)); [|exact (Hp _ ws _ Hs1 Eh)]. destruct (n =? 0); [exact Hs1|].
    pose proof (Ha _ ws n Hs1 Eh) as Hs2. destruct (dropN n (b :: d)) as [|b' rest]; [exact Hs2|].
    pose proof (Hp _ _ (b' :: rest) Hs2 (ack_hget _ _ _ _)) as H. destruct (plain_chunk _ _ _ _). exact H.
  - destruct (hget h (s_p s)) as [[n|]|]; [unfold write1_pending; destruct (n <=? lenN d)| |].
    + exact (Ha _ ws n Hs1 Eh).
    + exact (Hp _ ws d Hs1 Eh).
    + exact Hs1.
    + exact (Hp s ws d Hs Eh).
  - destruct (hget h (s_p s)) as [[n|]|]; [destruct (n <=? lenN d)| |].
    + exact (Ha _ ws n Hs1 Eh).
    + exact (Hb _ ws d Hs1 Eh).
    + exact Hs1.
    + exact (Hb s ws d Hs Eh).
Qed.

Lemma feed_sinv s h d o now :
  SInv s -> feed_op h d o ->
  SInv (snd (step hash s o now)) /\ zones_kept (s_fs s) (s_fs (snd (step hash s o now))).
Proof.
  intros Hs Ho.
  refine (feed_ind (fun s' => SInv s' /\ zones_kept (s_fs s) (s_fs s')) h _ _ _ _ s d o now Ho (conj Hs (fun l _ => eq_refl))).
  - exact (fun s' H => H).
  - intros s' ws n [H1 H2] Eh. exact (conj (ack_sinv s' h ws n H1 Eh) H2).
  - intros s' ws d' [H1 H2] Eh. destruct (plain_chunk_sinv s' h ws d' H1 Eh) as [H3 H4].
    split; [exact H3|]. intros l Hl. rewrite (H4 l Hl). exact (H2 l Hl).
  - intros s' ws d' [H1 H2] Eh. destruct (start_abandoned_sinv s' h ws d' H1 Eh) as [H3 H4].
    split; [exact H3|]. intros l Hl. rewrite (H4 l Hl). exact (H2 l Hl).
Qed.

Theorem step_sinv s o now :
  SInv s -> sess_op o ->
  SInv (snd (step hash s o now)) /\ Forall (ContentInv hash) (step_crash hash s o now).
Proof.
  intros Hs Ho.
  assert (Forall (ContentInv hash) [s_fs s]) as Hsame by (constructor; [exact (proj1 Hs)|constructor]).
  (* a call of one of the lookup, index, removal and extraction programs *)
  assert (forall A (p : prog (res A)) g, all_steps call_step p ->
            SInv (snd (runv s p g)) /\ Forall (ContentInv hash) (crash_states p (s_fs s))) as Hcall
    by (intros A p g Hp; rewrite runv_snd; exact (sinv_call s p Hs Hp)).
  assert (forall A (p : prog (res A)) g, all_steps read_step p -> SInv (snd (runv s p g)) /\ Forall (ContentInv hash) [s_fs s]) as Hread
    by (intros A p g Hp; exact (conj (proj1 (Hcall A p g (all_steps_impl _ _ _ read_step_call Hp))) Hsame)).
  assert (forall fl key o data t g, SInv (snd (runv s (oneshot hash fl key o data t) g)) /\
            Forall (ContentInv hash) (crash_states (oneshot hash fl key o data t) (s_fs s))) as Hone.
  { intros fl key o0 data t g. rewrite runv_snd. apply sinv_fresh; [exact Hs|].
    exact (steps_ok_impl _ _ _ _ (fun c f => write_step_sess _ _ _ _ c f (fun t H => proj1 H)) (oneshot_steps_fresh hash HL _ fl key o0 data t)). }
  assert (forall w d o, feed_op w d o ->
            SInv (snd (step hash s o now)) /\ Forall (ContentInv hash) (step_crash hash s o now)) as Hfeed.
  { intros w d o' Ho'. split; [exact (proj1 (feed_sinv s w d o' now Hs Ho'))|].
    destruct Ho' as [->|[->| ->]]; cbn [step_crash]; destruct (hget w (s_w s)) as [ws|] eqn:Eh, (hget w (s_p s)); try exact Hsame;
      exact (proj1 (chunk_sinv s w ws d Hs Eh)). }
  destruct o; cbn [sess_op] in Ho; try contradiction; cbn [step step_crash].
  - apply Hone.
  - apply Hone.
  - (* OOpen: a failed open leaves the writers as they are; a new writer is on a temp file that did not exist *)
    destruct (sinv_fresh s (open_writer fl key o) Hs) as [H1 H2].
    { exact (steps_ok_impl _ _ _ _ (fun c f => open_step_sess _ c f (fun t H => proj1 H)) (open_writer_steps_fresh _ fl key o)). }
    split; [|exact H2]. destruct (run (open_writer fl key o) (s_fs s)) as [[ws| | | |] f] eqn:E; try exact H1.
    destruct (open_writer_result _ _ _ _ _ _ E) as (Hwi & _ & _ & _ & _ & Hn & _).
    refine (sinv_hset s w ws f Hs (proj1 H1) (WInv_WInv0 _ _ Hwi) _). intros h2 ws2 _ H2'.
    split; [exact (proj1 (proj2 H1) h2 ws2 H2')|]. intros Et. rewrite <- Et in Hn.
    exact (proj2 (winv0_tmpfile _ _ (proj1 (proj2 Hs) h2 ws2 H2')) Hn).
  - exact (Hfeed w d _ (or_introl eq_refl)).
  - destruct (hget w (s_w s)) as [ws|] eqn:Eh; [|exact (conj Hs Hsame)].
    pose proof (proj1 (proj2 Hs) _ _ Eh) as Hw. pose proof (proj1 (winv0_tmpfile _ _ Hw)) as Ht.
    assert (steps_ok (sess_step (eq (w_tmp ws))) (commit hash ws now) (s_fs s)) as Hst.
    { apply (steps_ok_impl (write_step_on hash (eq (w_tmp ws)) (w_algo ws) (w_data ws) (w_key ws))).
      - intros c g. apply write_step_sess. intros t <-. exact Ht.
      - exact (commit_write_steps_on hash HL _ _ ws now eq_refl (close_writer_rename hash _ _ (WInv0_norm _ ws Hw))). }
    pose proof (sinv_close s w ws _ Hs Eh Hst) as H. destruct (run (commit hash ws now) (s_fs s)) as [r f]. exact H.
  - destruct (hget w (s_w s)) as [ws|] eqn:Eh; [|exact (conj Hs Hsame)].
    pose proof (proj1 (winv0_tmpfile _ _ (proj1 (proj2 Hs) _ _ Eh))) as Ht.
    assert (steps_ok (sess_step (eq (w_tmp ws))) (drop_writer ws) (s_fs s)) as Hst.
    { apply (all_steps_ok (tmp_step (w_tmp ws))); [intros c g; exact (tmp_step_sess _ _ c g Ht eq_refl)|].
      apply unlink_quiet_steps. reflexivity. }
    pose proof (sinv_close s w ws _ Hs Eh Hst) as H. destruct (run (drop_writer ws) (s_fs s)) as [r f]. exact H.
  - apply Hcall. exact (all_steps_impl _ _ _ (index_step_call key) (insert_steps hash key o now)).
  - apply Hcall. exact (all_steps_impl _ _ _ (index_step_call key) (delete_steps hash key now)).
  - apply Hread, find_reads.
  - apply Hread, read_reads.
  - apply Hread, read_hash_reads.
  - split; [|exact Hsame].
    assert (all_steps read_step (match b with ByKey k => ropen hash k | ByHash i => ropen_hash i end)) as Hro
      by (destruct b; [apply ropen_reads|apply ropen_hash_reads]).
    pose proof (proj1 (sinv_call s _ Hs (all_steps_impl _ _ _ read_step_call Hro))) as H.
    destruct (run (match b with ByKey k => ropen hash k | ByHash i => ropen_hash i end) (s_fs s)) as [[] f]; exact H.
  - destruct (hget r (s_r s)) as [rs|]; [destruct (rchunk rs n)|]; exact (conj Hs Hsame).
  - destruct (hget r (s_r s)) as [rs|]; [destruct (rchunk rs (lenN (r_rest rs)))|]; exact (conj Hs Hsame).
  - destruct (hget r (s_r s)); exact (conj Hs Hsame).
  - destruct (hget r (s_r s)); exact (conj Hs Hsame).
  - destruct b; apply Hcall.
    + exact (all_steps_impl _ _ _ (extract_step_call dst) (extract_steps hash x checked k (Ext dst))).
    + exact (all_steps_impl _ _ _ (extract_step_call dst) (extract_hash_steps hash x checked i (Ext dst))).
  - apply Hread, exists_hash_reads.
  - apply Hcall. exact (all_steps_impl _ _ _ (index_step_call key) (delete_steps hash key now)).
  - apply Hcall. refine (all_steps_impl _ _ _ (fun c => unlink_step_call _ c (fun l Hl => _)) (remove_hash_unlinks i)).
    destruct Hl as (cp & E & ->). right. exact (content_path_content i cp E).
  - apply Hcall. refine (all_steps_impl _ _ _ (fun c => unlink_step_call _ c (fun l Hl => _)) (remove_fully_unlinks hash key)).
    destruct Hl as [->|(i & cp & E & ->)]; [left; apply (bucket_index hash)|right; exact (content_path_content i cp E)].
  - apply Hread, ls_reads.
  - exact (Hfeed w d _ (or_intror (or_intror eq_refl))).
  - exact (Hfeed w d _ (or_intror (or_introl eq_refl))).
Qed.

Lemma sinv_init : SInv sstate0.
Proof.
  split; [intros p d H; discriminate H|]. split; [intros h ws H; discriminate H|intros h1 h2 ws1 ws2 _ H; discriminate H].
Qed.

(* every reachable state of every session *)
Theorem run_ops_sinv ops : forall s i,
  SInv s -> Forall sess_op ops -> SInv (snd (run_ops hash s ops i)).
Proof.
  induction ops as [|o ops IH]; intros s i Hs Ho; cbn [run_ops]; [exact Hs|].
  inversion Ho as [|? ? H1 H2]; subst. destruct (step_sinv s o (pseudo_now i) Hs H1) as [Hs' _].
  destruct (step hash s o (pseudo_now i)) as [r s']. cbn [snd] in Hs'.
  specialize (IH s' (i + 1) Hs' H2). destruct (run_ops hash s' ops (i + 1)) as [rs s'']. exact IH.
Qed.

(* C03 over histories: after any session prefix, a kill during the next call leaves only matching content files *)
Theorem session_crash_content ops o : forall i,
  Forall sess_op ops -> sess_op o ->
  Forall (ContentInv hash) (step_crash hash (snd (run_ops hash sstate0 ops 0)) o i).
Proof.
  intros i Hops Ho. exact (proj2 (step_sinv _ o i (run_ops_sinv ops sstate0 0 sinv_init Hops) Ho)).
Qed.


(* C14 over sessions: a writer that has not committed leaves no trace *)
Definition quiet_op (o : op) : Prop :=
  match o with OOpen _ _ _ _ | OChunk _ _ | OWrite1 _ _ | OAbandon _ _ | ODrop _ => True | _ => False end.

(* opening a writer, feeding it (acknowledged or cancelled writes), dropping it: no location under index-v5 or content-v2
   changes — no lookup, listing or read can tell; and after the drop the temp file is gone *)
Theorem quiet_ops_no_trace s o now :
  SInv s -> quiet_op o ->
  (forall l, is_index l \/ is_content l -> lookup (s_fs (snd (step hash s o now))) l = lookup (s_fs s) l) /\
  (forall h ws, o = ODrop h -> hget h (s_w s) = Some ws -> lookup (s_fs (snd (step hash s o now))) (w_tmp ws) = None).
Proof.
  intros Hs Ho. split.
  - destruct o; cbn [quiet_op] in Ho; try contradiction; intros l Hl.
    + cbn [step]. pose proof (touches_frame is_tmp _ (s_fs s) l (all_steps_impl _ _ _ open_step_touches (open_writer_steps fl key o)) (not_tmp l Hl)) as E.
      destruct (run (open_writer fl key o) (s_fs s)) as [r f]. destruct r; exact E.
    + exact (proj2 (feed_sinv s w d _ now Hs (or_introl eq_refl)) l Hl).
    + cbn [step]. destruct (hget w (s_w s)) as [ws|] eqn:Eh; [|reflexivity].
      pose proof (touches_frame is_tmp (drop_writer ws) (s_fs s) l) as E.
      destruct (run (drop_writer ws) (s_fs s)) as [r f]. apply E; [|exact (not_tmp l Hl)].
      apply unlink_quiet_steps. intros x ->. right. exact (proj1 (winv0_tmpfile _ _ (proj1 (proj2 Hs) w ws Eh))).
    + exact (proj2 (feed_sinv s w d _ now Hs (or_intror (or_intror eq_refl))) l Hl).
    + exact (proj2 (feed_sinv s w d _ now Hs (or_intror (or_introl eq_refl))) l Hl).
  - intros h ws -> Hh. cbn [step]. rewrite Hh.
    assert (lookup (snd (run (drop_writer ws) (s_fs s))) (w_tmp ws) = None) as E
      by exact (proj1 (drop_no_trace (s_fs s) _ (WInv0_norm _ _ (proj1 (proj2 Hs) _ _ Hh)))).
    destruct (run (drop_writer ws) (s_fs s)) as [r f]. exact E.
Qed.

End SP.
