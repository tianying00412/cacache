(* BytesP.v — basic facts about byte strings, equality tests and [split]. *)
From CC Require Import Bytes.
From Coq Require Import Lia.

Lemma byte_eqb_refl b : Byte.eqb b b = true.
Proof. apply Byte.byte_dec_lb. reflexivity. Qed.

Lemma byte_eqb_eq a b : Byte.eqb a b = true <-> a = b.
Proof. split; [apply Byte.byte_dec_bl | intros ->; apply byte_eqb_refl]. Qed.

Lemma false_iff_of_true_iff (b : bool) (P : Prop) : (b = true <-> P) -> (b = false <-> ~ P).
Proof. intros H. rewrite <- Bool.not_true_iff_false, H. reflexivity. Qed.

Lemma byte_eqb_neq a b : Byte.eqb a b = false <-> a <> b.
Proof. apply false_iff_of_true_iff, byte_eqb_eq. Qed.

Lemma list_eqb_eq {A} (eqb : A -> A -> bool) :
  (forall x y, eqb x y = true <-> x = y) -> forall a b, list_eqb eqb a b = true <-> a = b.
Proof.
  intros Hspec a. induction a as [|x a IH]; intros [|y b]; simpl; split; intros H; try reflexivity; try discriminate.
  - apply andb_true_iff in H as [H1 H2]. apply Hspec in H1. apply IH in H2. congruence.
  - inversion H; subst. apply andb_true_iff. split; [apply Hspec; reflexivity | apply IH; reflexivity].
Qed.

Lemma bytes_eqb_eq a b : bytes_eqb a b = true <-> a = b.
Proof.
  assert (bytes_eqb a b = list_eqb Byte.eqb a b) as ->
    by (revert b; induction a as [|x a IH]; intros [|y b]; cbn; rewrite ?IH; reflexivity).
  apply list_eqb_eq, byte_eqb_eq.
Qed.

Lemma bytes_eqb_refl a : bytes_eqb a a = true.
Proof. apply bytes_eqb_eq. reflexivity. Qed.

Lemma bytes_eqb_neq a b : bytes_eqb a b = false <-> a <> b.
Proof. apply false_iff_of_true_iff, bytes_eqb_eq. Qed.

Lemma bytes_eqb_spec a b : reflect (a = b) (bytes_eqb a b).
Proof. apply iff_reflect. symmetry. apply bytes_eqb_eq. Qed.

Lemma split_nonempty sep l : split sep l <> [].
Proof.
  destruct l as [|b t]; simpl; [discriminate|].
  destruct (Byte.eqb b sep); [discriminate|]. destruct (split sep t); discriminate.
Qed.

Lemma split_app_sep sep a b : split sep (a ++ sep :: b) = split sep a ++ split sep b.
Proof.
  induction a as [|x a IH]; simpl.
  - rewrite byte_eqb_refl. reflexivity.
  - destruct (Byte.eqb x sep) eqn:E.
    + rewrite IH. reflexivity.
    + rewrite IH. destruct (split sep a) as [|s ss] eqn:Es.
      * exfalso. eapply split_nonempty; eauto.
      * reflexivity.
Qed.

Lemma split_no_sep sep l : (forall b, In b l -> Byte.eqb b sep = false) -> split sep l = [l].
Proof.
  induction l as [|x l IH]; intros H; simpl; [reflexivity|].
  rewrite (H x (or_introl eq_refl)). rewrite IH; [reflexivity|]. intros; apply H; right; auto.
Qed.

Lemma split_two sep a b :
  (forall x, In x a -> Byte.eqb x sep = false) -> (forall x, In x b -> Byte.eqb x sep = false) ->
  split sep (a ++ sep :: b) = [a; b].
Proof. intros Ha Hb. rewrite split_app_sep, (split_no_sep sep a Ha), (split_no_sep sep b Hb). reflexivity. Qed.

Lemma lenN_of_nat (l : bytes) : lenN l = N.of_nat (List.length l).
Proof. induction l as [|x l IH]; [reflexivity|]. cbn [lenN List.length]. rewrite IH. lia. Qed.

Lemma takeN_firstn {A} (n : N) (l : list A) : takeN n l = firstn (N.to_nat n) l.
Proof.
  revert n. induction l as [|x l IH]; intros n; [destruct (N.to_nat n); reflexivity|].
  cbn [takeN]. destruct (N.eqb n 0) eqn:E.
  - apply N.eqb_eq in E. subst. reflexivity.
  - apply N.eqb_neq in E. rewrite IH. replace (N.to_nat n) with (S (N.to_nat (N.pred n))) by lia. reflexivity.
Qed.

Lemma dropN_skipn {A} (n : N) (l : list A) : dropN n l = skipn (N.to_nat n) l.
Proof.
  revert n. induction l as [|x l IH]; intros n; [destruct (N.to_nat n); reflexivity|].
  cbn [dropN]. destruct (N.eqb n 0) eqn:E.
  - apply N.eqb_eq in E. subst. reflexivity.
  - apply N.eqb_neq in E. rewrite IH. replace (N.to_nat n) with (S (N.to_nat (N.pred n))) by lia. reflexivity.
Qed.

Lemma lenN_app (a b : bytes) : lenN (a ++ b) = (lenN a + lenN b)%N.
Proof. rewrite !lenN_of_nat, app_length. lia. Qed.

Lemma takeN_all (l : bytes) : takeN (lenN l) l = l.
Proof. rewrite takeN_firstn, lenN_of_nat, Nat2N.id. apply firstn_all. Qed.

Lemma takeN_app_exact (a b : bytes) : takeN (lenN a) (a ++ b) = a.
Proof.
  rewrite takeN_firstn, lenN_of_nat, Nat2N.id. rewrite firstn_app, Nat.sub_diag, firstn_all. cbn. apply app_nil_r.
Qed.

Lemma take_drop_N {A} n (l : list A) : takeN n l ++ dropN n l = l.
Proof. rewrite takeN_firstn, dropN_skipn. apply firstn_skipn. Qed.

Lemma lenN_takeN (n : N) (l : bytes) : (n <= lenN l)%N -> lenN (takeN n l) = n.
Proof. intros H. rewrite lenN_of_nat in *. rewrite takeN_firstn, firstn_length. lia. Qed.

Lemma lenN_dropN (n : N) (l : bytes) : lenN (dropN n l) = (lenN l - n)%N.
Proof. rewrite !lenN_of_nat, dropN_skipn, skipn_length. lia. Qed.
