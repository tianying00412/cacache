(* FaultFrameP.v — C13 "afterwards other entries are unaffected", for a keyed one-shot write in which ANY number of steps
   fail (each answering an errno and leaving the tree as it was or in one of the step's intermediate states): every other
   key's lookup and every other stored content are exactly as before; the written key's lookup is its previous entry or
   the complete new one.  Likewise for a removal of content by address and for the removal of a key (tombstone). *)
From CC Require Import Bytes Sri Record Fs Prog Api Crash BytesP ProgP StepsP IndexP WriteP CommitP TotalP
  CrashIdxP KeepP FaultP.
From Coq Require Import Lia.
Local Open Scope N_scope.

Section FF.
Variable hash : algo -> bytes -> bytes.
Hypothesis HL : HashLen hash.

Lemma frun_untouched {A} (R : loc -> Prop) (p : prog A) f a f' :
  all_steps (touches (fun l => ~ R l)) p -> frun p f a f' -> forall l, R l -> lookup f' l = lookup f l.
Proof.
  intros Hp. exact (frun_invariant _ _ (untouched_step R f) p f a f' (fun l _ => eq_refl) (all_steps_fsteps _ _ p (fun c g H => H) Hp f)).
Qed.

(* the region a write must leave alone: the index area and every content file other than its own *)
Definition other (cp : path) (l : loc) : Prop := is_index l \/ (cfile hash l /\ InCache cp <> l).

Lemma tmp_not_other cp l : is_tmp l -> ~ other cp l.
Proof. intros Ht [Hi|[Hc _]]; [exact (index_not_tmp l Hi Ht)|exact (content_not_tmp l (cfile_content hash l Hc) Ht)]. Qed.

Lemma frun_tmp_steps {A} cp (p : prog A) f a f' :
  all_steps (touches is_tmp) p -> frun p f a f' -> forall l, other cp l -> lookup f' l = lookup f l.
Proof. intros Hp. exact (frun_untouched (other cp) p f a f' (all_steps_touches _ _ p (tmp_not_other cp) Hp)). Qed.

Lemma close_other w :
  tmpfile (w_tmp w) ->
  all_steps (touches (fun l => ~ other (cpath hash (w_algo w) (w_data w)) l)) (close_writer hash w).
Proof.
  intros Ht. apply (all_steps_impl (close_step hash w)); [|apply close_writer_steps].
  intros c H l Hl. destruct (close_step_touches hash w c HL H l Hl) as [->|[Hp| ->]].
  - apply tmp_not_other. right. exact Ht.
  - intros [Hi|[Hc _]]; [exact (index_not_content l Hi (content_parents _ _ _ _ l Hp))|exact (cfile_not_parent_prefix hash l _ _ Hc Hp)].
  - intros [Hi|[_ Hne]]; [exact (index_not_content _ Hi (ex_intro _ _ eq_refl))|exact (Hne eq_refl)].
Qed.

Definition others_kept (f f' : fs) (key : bytes) (cp : path) (o' : wopts) (now : N) : Prop :=
  IndexInv f' /\
  (forall k, k <> key -> abs_idx hash f' k = abs_idx hash f k) /\
  (forall l, cfile hash l -> InCache cp <> l -> lookup f' l = lookup f l) /\
  (abs_idx hash f' key = abs_idx hash f key \/ abs_idx hash f' key = new_entry key o' now).

Lemma others_kept_frame f g key cp o' now :
  IndexInv f -> (forall l, other cp l -> lookup g l = lookup f l) -> others_kept f g key cp o' now.
Proof.
  intros Hi Hfr. assert (forall l, is_index l -> lookup g l = lookup f l) as Hidx by (intros l Hl; apply Hfr; left; exact Hl).
  split; [exact (IndexInv_frame f g Hi Hidx)|]. split; [intros k _; apply (abs_idx_frame hash); exact Hidx|].
  split; [intros l Hl Hne; apply Hfr; right; split; assumption|left; apply (abs_idx_frame hash); exact Hidx].
Qed.

Lemma others_kept_trans f g h key cp o' now :
  (forall l, other cp l -> lookup g l = lookup f l) -> others_kept g h key cp o' now -> others_kept f h key cp o' now.
Proof.
  intros Hfr [Hi [Ho [Hc Hk]]].
  assert (forall k, abs_idx hash g k = abs_idx hash f k) as Ha by (apply (abs_idx_frame hash); intros l Hl; apply Hfr; left; exact Hl).
  split; [exact Hi|]. split; [intros k Hne; rewrite (Ho k Hne); apply Ha|].
  split; [intros l Hl Hne; rewrite (Hc l Hl Hne); apply Hfr; right; split; assumption|rewrite <- (Ha key); exact Hk].
Qed.

Lemma insert_faulty_lookups f key o now r f' :
  IndexInv f -> wf_rec hash (smeta_of key o now) -> wf_sri_opt o -> PrefixFree hash (encode_smeta (smeta_of key o now)) ->
  frun (insert hash key o now) f r f' ->
  IndexInv f' /\
  (forall k, k <> key -> abs_idx hash f' k = abs_idx hash f k) /\
  (forall l, ~ is_index l -> lookup f' l = lookup f l) /\
  (abs_idx hash f' key = abs_idx hash f key \/ abs_idx hash f' key = new_entry key o now).
Proof.
  intros Hi Hwf Hso Hpf Hr. destruct (insert_faulty hash f key o now r f' Hi Hwf Hpf Hr) as [[Hs| ->] _].
  - pose proof Hs as [Hi' [_ Hnon]]. split; [exact Hi'|]. split; [intros k _; apply (SameIdx_abs hash); exact Hs|].
    split; [exact Hnon|left; apply (SameIdx_abs hash); exact Hs].
  - destruct (insert_abs hash f key o now Hi Hwf Hso) as [Hi' [_ [Habs Hnon]]].
    split; [exact Hi'|]. split; [intros k Hne; rewrite Habs; apply bytes_eqb_neq in Hne; rewrite Hne; reflexivity|].
    split; [intros l Hl; apply Hnon; intros q X; apply Hl; exists q; exact X|].
    right. rewrite Habs, bytes_eqb_refl. reflexivity.
Qed.

Lemma commit_faulty_others f w fl a key data now r f' :
  IndexInv f -> Qfed (Some key) (write_opts fl a data) data w ->
  let o' := commit_opts (write_opts fl a data) (sri_of hash a data) (lenN data) in
  wf_rec hash (smeta_of key o' now) -> PrefixFree hash (encode_smeta (smeta_of key o' now)) ->
  frun (commit hash w now) f r f' -> others_kept f f' key (cpath hash a data) o' now.
Proof.
  intros Hi (Ht & Hd & Hwr & Hk & Ho & Ha) o' Hwf Hpf Hr. replace (algo_of _) with a in Ha by (destruct fl; reflexivity).
  unfold commit, rbind in Hr. apply frun_bind in Hr as [rc [f3 [Hc Hrest]]].
  pose proof (frun_untouched _ _ _ _ _ (close_other w Ht) Hc) as F3. rewrite Ha, Hd in F3.
  pose proof (fpost_frun _ _ _ _ _ (close_writer_returns hash HL w) Hc) as Qc.
  destruct rc as [wsri|e| | |]; cbn [returns] in Qc; try contradiction.
  - subst wsri. rewrite Ha, Hd, Ho, Hk, Hwr in Hrest.
    assert (frun (insert hash key o' now) f3 r f') as Hins.
    { revert Hrest. unfold o', commit_opts. destruct fl; cbn [write_opts o_sri o_size o_algo o_time o_meta o_raw]; [|rewrite N.eqb_refl; cbn [negb]]; exact (fun x => x). }
    assert (IndexInv f3) as Hi3 by (apply (IndexInv_frame f); [exact Hi|intros l Hl; apply F3; left; exact Hl]).
    assert (wf_sri_opt o') as Hso.
    { intros i Ei. unfold o', commit_opts in Ei. cbn [o_sri] in Ei. inversion Ei; subst i. apply (parse_entry_computed hash _ _ HL). }
    apply (others_kept_trans f f3); [exact F3|].
    destruct (insert_faulty_lookups f3 key o' now r f' Hi3 Hwf Hso Hpf Hins) as (Hi' & Hoth & Hnon & Hkey).
    split; [exact Hi'|]. split; [exact Hoth|]. split; [|exact Hkey].
    intros l Hl _. apply Hnon. intros X. exact (index_not_content l X (cfile_content hash l Hl)).
  - apply frun_ret in Hrest as [_ ->]. apply others_kept_frame; assumption.
Qed.

Theorem write_faulty_others f fl a key data now r f' :
  IndexInv f ->
  let o' := commit_opts (write_opts fl a data) (sri_of hash a data) (lenN data) in
  wf_rec hash (smeta_of key o' now) -> PrefixFree hash (encode_smeta (smeta_of key o' now)) ->
  frun (write hash fl a key data now) f r f' -> others_kept f f' key (cpath hash a data) o' now.
Proof.
  intros Hi o' Hwf Hpf Hr. set (cp := cpath hash a data).
  unfold write, oneshot, rbind in Hr. apply frun_bind in Hr as [r1 [f1 [Ho Hrest]]].
  pose proof (frun_tmp_steps cp _ _ _ _ (all_steps_impl _ _ _ open_step_touches (open_writer_steps _ _ _)) Ho) as F1.
  pose proof (fpost_frun _ _ _ _ _ (open_writer_returns fl (Some key) (write_opts fl a data)) Ho) as Q1.
  destruct r1 as [w|e| | |]; cbn [returns] in Q1; try contradiction.
  2: { apply frun_ret in Hrest as [_ ->]. apply others_kept_frame; assumption. }
  pose proof (proj1 Q1) as Ht.
  assert (IndexInv f1) as Hi1 by (apply (IndexInv_frame f); [exact Hi|intros l Hl; apply F1; left; exact Hl]).
  apply (others_kept_trans f f1); [exact F1|].
  destruct data as [|b data].
  - exact (commit_faulty_others f1 w fl a key [] now r f' Hi1 Q1 Hwf Hpf Hrest).
  - apply frun_bind in Hrest as [r2 [f2 [Hc Hrest]]].
    pose proof (frun_tmp_steps cp _ _ _ _ (all_steps_impl _ _ _ (fun c => tmp_step_is_tmp _ c Ht) (write_chunk_steps w (b :: data))) Hc) as F2.
    assert (IndexInv f2) as Hi2 by (apply (IndexInv_frame f1); [exact Hi1|intros l Hl; apply F2; left; exact Hl]).
    apply (others_kept_trans f1 f2); [exact F2|].
    pose proof (fpost_frun _ _ _ _ _ (write_chunk_returns w (b :: data)) Hc) as Q2.
    destruct r2 as [w'|e| | |]; cbn [returns] in Q2; try contradiction.
    + exact (commit_faulty_others f2 w' fl a key (b :: data) now r f' Hi2 (Qfed_chunk _ _ [] w _ w' Q1 Q2) Hwf Hpf Hrest).
    + apply others_kept_frame; [exact Hi2|]. apply (frun_tmp_steps cp _ _ _ _ (unlink_quiet_steps _ _ _ (tmp_step_is_tmp _ (Unlink (w_tmp w)) Ht eq_refl)) Hrest).
Qed.

(* removal of content by address: only that content path can change *)
Theorem remove_hash_faulty_others i f r f' :
  frun (remove_hash i) f r f' ->
  forall l, (forall cp, content_path i = Some cp -> l <> InCache cp) -> lookup f' l = lookup f l.
Proof.
  intros Hr l Hl.
  apply (frun_untouched (fun x => x = l) (remove_hash i) f r f'); [|exact Hr|reflexivity].
  apply (all_steps_touches (fun x => exists cp, content_path i = Some cp /\ x = InCache cp)).
  - intros x (cp & E & ->) El. exact (Hl cp E (eq_sym El)).
  - exact (all_steps_impl _ _ _ (unlink_step_touches _) (remove_hash_unlinks i)).
Qed.

(* removal of a key (tombstone): unchanged or complete, other keys and every non-index location untouched *)
Theorem delete_faulty_others f key now r f' :
  IndexInv f -> wf_rec hash (smeta_of key wopts0 now) -> PrefixFree hash (encode_smeta (smeta_of key wopts0 now)) ->
  frun (delete hash key now) f r f' ->
  IndexInv f' /\
  (forall k, k <> key -> abs_idx hash f' k = abs_idx hash f k) /\
  (forall l, ~ is_index l -> lookup f' l = lookup f l) /\
  (abs_idx hash f' key = abs_idx hash f key \/ abs_idx hash f' key = None).
Proof.
  intros Hi Hwf Hpf Hr. unfold delete, rbind in Hr. apply frun_bind in Hr as [r1 [f1 [Hins Hrest]]].
  assert (f' = f1) as -> by (destruct r1; apply frun_ret in Hrest as [_ ->]; reflexivity).
  apply (insert_faulty_lookups f key wopts0 now r1 f1 Hi Hwf); [intros i Ei; discriminate Ei|exact Hpf|exact Hins].
Qed.

End FF.
