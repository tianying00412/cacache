(* HashExtP.v — the model uses its hash parameter only through its values.  Two pointwise equal hash functions give
   equal pure functions, and step programs that agree up to their continuations at every answer ([peq]: without
   function extensionality they need not be the same term).  Runs and the explorer do not tell such
   programs apart.  [memo h keys] is [h] with its values on [keys] tabulated: a closed example evaluated with it in
   place of [h] computes each listed digest once, whatever the reduction machine, as long as the table is shared. *)
From CC Require Import Bytes Utf8 Sri Record Fs Prog Api Conc BytesP SriP CommitP.

Inductive peq {A} : prog A -> prog A -> Prop :=
| peq_ret a : peq (Ret a) (Ret a)
| peq_do c k k' : (forall r, peq (k r) (k' r)) -> peq (Do c k) (Do c k').

Lemma peq_refl {A} (p : prog A) : peq p p.
Proof. induction p; constructor; assumption. Qed.

Lemma peq_bind {A B} (p p' : prog A) (g g' : A -> prog B) :
  peq p p' -> (forall a, peq (g a) (g' a)) -> peq (bind p g) (bind p' g').
Proof. intros H Hg. induction H; cbn [bind]; [apply Hg|constructor; assumption]. Qed.

Lemma peq_rbind {A B} (p p' : prog (res A)) (g g' : A -> prog (res B)) :
  peq p p' -> (forall a, peq (g a) (g' a)) -> peq (rbind p g) (rbind p' g').
Proof. intros H Hg. apply peq_bind; [exact H|]. intros [a|e| | |]; try apply peq_refl. apply Hg. Qed.

Lemma run_peq {A} {p p' : prog A} : peq p p' -> forall f, run p f = run p' f.
Proof. induction 1 as [a|c k k' _ IH]; intros f; cbn [run]; [reflexivity|]. destruct (exec c f). apply IH. Qed.

Definition pool_eq {A} (s s' : pool A * fs) : Prop := Forall2 peq (fst s) (fst s') /\ snd s = snd s'.

Lemma results_peq {A} (pl pl' : pool A) : Forall2 peq pl pl' -> results pl = results pl'.
Proof. induction 1 as [|p p' pl pl' H _ IH]; [reflexivity|]. destruct H; cbn [results]; [rewrite IH|]; reflexivity. Qed.

Lemma successors_peq {A} (pl pl' : pool A) f :
  Forall2 peq pl pl' -> forall pre pre', Forall2 peq pre pre' -> Forall2 pool_eq (successors pre pl f) (successors pre' pl' f).
Proof.
  induction 1 as [|p p' pl pl' H Hl IH]; intros pre pre' Hp; [constructor|]. destruct H as [a|c k k' Hk]; cbn [successors].
  - apply IH, Forall2_app; [exact Hp|repeat constructor].
  - constructor.
    + split; [|reflexivity]. apply Forall2_app; [exact Hp|constructor; [apply Hk|exact Hl]].
    + apply IH, Forall2_app; [exact Hp|repeat constructor; exact Hk].
Qed.

Lemma explore_peq {A} fuel : forall (pl pl' : pool A) f, Forall2 peq pl pl' -> explore fuel pl f = explore fuel pl' f.
Proof.
  induction fuel as [|n IH]; intros pl pl' f H; cbn [explore]; rewrite (results_peq pl pl' H); [reflexivity|].
  destruct (results pl'); [reflexivity|].
  generalize (successors [] pl f), (successors [] pl' f), (successors_peq pl pl' f H [] [] (Forall2_nil _)).
  induction 1 as [|[p g] [p' g'] l l' [H1 H2] _ IHl]; [reflexivity|]. cbn [fst snd] in H1, H2. subst g'.
  rewrite (IH p p' g H1), IHl. reflexivity.
Qed.

Lemma forallb_Forall2 {A B} (R : A -> B -> Prop) p q l l' :
  Forall2 R l l' -> (forall a b, R a b -> p a = true -> q b = true) -> forallb p l = true -> forallb q l' = true.
Proof.
  intros H Hpq. induction H as [|a b l l' Hab _ IH]; [reflexivity|]. cbn [forallb]. rewrite !andb_true_iff.
  intros [H1 H2]. split; [exact (Hpq a b Hab H1)|exact (IH H2)].
Qed.

Section Ext.
Context {h h' : algo -> bytes -> bytes} (E : forall a d, h a d = h' a d).

Lemma sri_of_ext a d : sri_of h a d = sri_of h' a d.
Proof. unfold sri_of. rewrite E. reflexivity. Qed.

Lemma check_res_ext i d : check_res h i d = check_res h' i d.
Proof. unfold check_res, sri_check. destruct (pick_algorithm i); [rewrite E|]; reflexivity. Qed.

Lemma record_bytes_ext m : record_bytes h m = record_bytes h' m.
Proof. unfold record_bytes, record_line, hash_entry. rewrite E. reflexivity. Qed.

Lemma bucket_path_ext key : bucket_path h key = bucket_path h' key.
Proof. unfold bucket_path, hash_key. rewrite E. reflexivity. Qed.

Lemma entries_ext d : entries h d = entries h' d.
Proof.
  apply flat_map_ext. intros l. unfold contrib, entry_of_line, hash_entry. destruct (valid_utf8 l); [|reflexivity].
  destruct (split tab l) as [|a [|b [|]]]; try reflexivity. rewrite E. reflexivity.
Qed.

Lemma insert_ext key o now : insert h key o now = insert h' key o now.
Proof. unfold insert. rewrite bucket_path_ext, record_bytes_ext. reflexivity. Qed.

Lemma delete_ext key now : delete h key now = delete h' key now.
Proof. unfold delete. rewrite insert_ext. reflexivity. Qed.

(* Programs.  Both sides are the same term up to [h]: bring the hash-dependent values that are in sight to [h'], then,
   unless that has made the two programs one, descend through whatever they branch on, the step they issue or the
   bind they start with. *)
Local Ltac to_h' := rewrite ?sri_of_ext, ?check_res_ext, ?bucket_path_ext, ?entries_ext, ?insert_ext.
Local Ltac descend :=
  repeat (to_h';
          match goal with
          | |- peq ?p ?p => apply peq_refl
          | |- peq (match ?x with _ => _ end) _ => destruct x
          | |- peq (Do _ _) (Do _ _) => constructor; intro
          | |- peq (rbind _ _) (rbind _ _) => apply peq_rbind; [|intro]
          | |- peq (bind _ _) (bind _ _) => apply peq_bind; [|intro]
          end);
  to_h'; auto using peq_refl.

Lemma bucket_entries_peq {l} : peq (bucket_entries h l) (bucket_entries h' l).
Proof. unfold bucket_entries. descend. Qed.

Lemma find_peq {key} : peq (find h key) (find h' key).
Proof. pose proof @bucket_entries_peq. unfold find. descend. Qed.

Lemma by_key_peq {A key} (k k' : integrity -> prog (res A)) :
  (forall i, peq (k i) (k' i)) -> peq (by_key h key k) (by_key h' key k').
Proof. intros H. pose proof @find_peq. unfold by_key. descend. Qed.

Lemma read_hash_peq {i} : peq (read_hash h i) (read_hash h' i).
Proof. unfold read_hash, with_cpath. descend. Qed.

Lemma read_peq {key} : peq (read h key) (read h' key).
Proof. apply by_key_peq. intros i. apply read_hash_peq. Qed.

Lemma commit_peq {w now} : peq (commit h w now) (commit h' w now).
Proof. unfold commit, close_writer. descend. Qed.

Lemma oneshot_peq {fl key o data now} : peq (oneshot h fl key o data now) (oneshot h' fl key o data now).
Proof. pose proof @commit_peq. unfold oneshot. descend. Qed.

Lemma write_peq {fl a key data now} : peq (write h fl a key data now) (write h' fl a key data now).
Proof. apply oneshot_peq. Qed.

Lemma write_hash_peq {fl a data} : peq (write_hash h fl a data) (write_hash h' fl a data).
Proof. apply oneshot_peq. Qed.

Lemma stream_write_peq {fl key o cs now} : peq (stream_write h fl key o cs now) (stream_write h' fl key o cs now).
Proof. pose proof @commit_peq. unfold stream_write. descend. Qed.

Lemma remove_fully_peq {key} : peq (remove_fully h key) (remove_fully h' key).
Proof. pose proof @find_peq. unfold remove_fully. descend. Qed.

Lemma ls_peq : peq (ls h) (ls h').
Proof.
  assert (forall bs, peq (ls_buckets h bs) (ls_buckets h' bs)).
  { pose proof @bucket_entries_peq. induction bs as [|b t IH]; cbn [ls_buckets]; descend. }
  unfold ls. descend.
Qed.

End Ext.

Definition memo (h : algo -> bytes -> bytes) (keys : list (algo * bytes)) : algo -> bytes -> bytes :=
  let T := map (fun k => (k, h (fst k) (snd k))) keys in
  fun a d => match List.find (fun e => algo_eqb a (fst (fst e)) && bytes_eqb d (snd (fst e))) T with
             | Some e => snd e
             | None => h a d
             end.

Lemma memo_eq h keys a d : memo h keys a d = h a d.
Proof.
  unfold memo. destruct (List.find _ _) as [e|] eqn:F; [|reflexivity]. apply find_some in F as [Hin Hb].
  apply in_map_iff in Hin as [k [<- _]]. apply andb_true_iff in Hb as [Ha Hd]. cbn [fst snd] in *.
  apply algo_eqb_eq in Ha. apply bytes_eqb_eq in Hd. subst. reflexivity.
Qed.

(* The examples in props/ hash with a three-byte digest: the length, a checksum that folds the whole input into one
   number before reducing it modulo 256, and a constant.  On the text of a record that number has some 850 bits, and a checker that
   replays the evaluation by lazy reduction spends nearly all its time on it.  [toy_fast] reduces at every byte. *)
Local Open Scope N_scope.
Definition toy_sum (d : bytes) : N := fold_left (fun acc b => N.land (acc * 31 + b2n b) 255) d 7.
Definition toy_fast (a : algo) (d : bytes) : bytes := [n2b (lenN d mod 251); n2b (toy_sum d); x01].

Lemma toy_sum_eq d : fold_left (fun acc b => acc * 31 + b2n b) d 7 mod 256 = toy_sum d.
Proof.
  unfold toy_sum. change 7 with (7 mod 256) at 2. generalize 7. induction d as [|b d IH]; intros s; [reflexivity|].
  cbn [fold_left]. rewrite IH. f_equal. change 255 with (N.ones 8). rewrite N.land_ones. change (2 ^ 8) with 256.
  rewrite (N.add_mod (s mod 256 * 31)), N.mul_mod_idemp_l, <- N.add_mod; [reflexivity|discriminate..].
Qed.

Lemma toy_fast_eq a d : [n2b (lenN d mod 251); n2b (fold_left (fun acc b => acc * 31 + b2n b) d 7 mod 256); x01] = toy_fast a d.
Proof. unfold toy_fast. rewrite toy_sum_eq. reflexivity. Qed.
