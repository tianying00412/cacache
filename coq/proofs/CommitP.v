(* CommitP.v — the cache invariant and the three areas of the tree (index-v5, content-v2, tmp); commit = close, then the
   integrity decision, then the size decision, then the index insert; whole keyed / by-address writes and reading back;
   the steps a whole write issues. *)
From CC Require Import Bytes Json Sri Record Fs Prog Api Crash BytesP FsP ProgP StepsP SriP IndexP WriteP.
From Coq Require Import Lia.
Local Open Scope N_scope.

Section C.
Variable hash : algo -> bytes -> bytes.
Hypothesis HL : HashLen hash.

Definition CacheInv (f : fs) : Prop := IndexInv f /\ ContentShape f /\ TmpShape f.

Definition is_index (l : loc) : Prop := exists p, l = InCache (index_dir :: p).
Definition is_content (l : loc) : Prop := exists p, l = InCache (content_dir :: p).
Definition is_tmp (l : loc) : Prop := l = InCache tmp_dir \/ tmpfile l.

Lemma index_not_content l : is_index l -> is_content l -> False.
Proof. intros [p ->] [q H]. discriminate H. Qed.
Lemma index_not_tmp l : is_index l -> is_tmp l -> False.
Proof. intros [p ->] [H|[n H]]; discriminate H. Qed.
Lemma content_not_tmp l : is_content l -> is_tmp l -> False.
Proof. intros [p ->] [H|[n H]]; discriminate H. Qed.

Lemma not_tmp l : is_index l \/ is_content l -> ~ is_tmp l.
Proof. intros [H|H] Ht; [exact (index_not_tmp l H Ht)|exact (content_not_tmp l H Ht)]. Qed.

Lemma tmpfile_not_content t : tmpfile t -> ~ is_content t.
Proof. intros Ht Hc. exact (content_not_tmp t Hc (or_intror Ht)). Qed.

Lemma tmp_loc_not_content n : ~ is_content (InCache (tmp_dir ++ [n])).
Proof. apply tmpfile_not_content. exists n. reflexivity. Qed.

Lemma content_path_shape i cp : content_path i = Some cp -> exists x a b c, cp = [content_dir; x; a; b; c].
Proof.
  unfold content_path. destruct (sri_to_hex i) as [[al h]|]; [|discriminate]. destruct (lenN h <? 4); [discriminate|].
  intros E. inversion E. eauto.
Qed.

Lemma content_path_content i cp : content_path i = Some cp -> is_content (InCache cp).
Proof. intros E. destruct (content_path_shape i cp E) as (x & a & b & c & ->). eexists. reflexivity. Qed.

Lemma content_parents x a b c l : In l (map InCache (prefixes (parent [content_dir; x; a; b; c]))) -> is_content l.
Proof. intros H. apply in_map_iff in H as (q & <- & [<-|[<-|[<-|[<-|[]]]]]); eexists; reflexivity. Qed.

Lemma bucket_index key : is_index (InCache (bucket_path hash key)).
Proof. destruct (bucket_path_shape hash key) as (a & b & c & ->). eexists. reflexivity. Qed.

Lemma bucket_not_content key : ~ is_content (InCache (bucket_path hash key)).
Proof. exact (index_not_content _ (bucket_index key)). Qed.

Lemma index_step_index key c : index_step (bucket_path hash key) c -> touches is_index c.
Proof.
  intros H l Hl. destruct (index_step_touches _ c H l Hl) as [Hin| ->]; [|apply bucket_index].
  destruct (bucket_path_shape hash key) as (x & y & z & E). rewrite E, prefixes_parent_bucket in Hin.
  destruct Hin as [<-|[<-|[<-|[]]]]; eexists; reflexivity.
Qed.

Lemma tmp_step_is_tmp t c : tmpfile t -> tmp_step t c -> touches is_tmp c.
Proof. intros Ht H l Hl. rewrite <- (tmp_step_touches t c H l Hl). right. exact Ht. Qed.

Lemma IndexInv_frame f f' : IndexInv f -> (forall l, is_index l -> lookup f' l = lookup f l) -> IndexInv f'.
Proof. intros H Hfr p n Hn. rewrite Hfr in Hn by (exists p; reflexivity). apply (H p n Hn). Qed.
Lemma ContentShape_frame f f' : ContentShape f -> (forall l, is_content l -> lookup f' l = lookup f l) -> ContentShape f'.
Proof. intros H Hfr p n Hn. rewrite Hfr in Hn by (exists p; reflexivity). apply (H p n Hn). Qed.
Lemma TmpShape_frame f f' : TmpShape f -> lookup f' (InCache tmp_dir) = lookup f (InCache tmp_dir) -> TmpShape f'.
Proof. unfold TmpShape, dir_or_absent. intros H E. rewrite E. exact H. Qed.

Lemma abs_idx_frame f f' : (forall l, is_index l -> lookup f' l = lookup f l) -> forall k, abs_idx hash f' k = abs_idx hash f k.
Proof. intros Hfr k. unfold abs_idx, bucket_bytes. rewrite (Hfr _ (bucket_index k)). reflexivity. Qed.

Lemma CacheInv_tmp_frame f f' :
  CacheInv f -> TmpShape f' -> (forall l, ~ is_tmp l -> lookup f' l = lookup f l) -> CacheInv f'.
Proof.
  intros (Hi & Hc & _) Ht Hfr. split; [|split; [|exact Ht]].
  - apply (IndexInv_frame f); [exact Hi|]. intros l Hl. apply Hfr, not_tmp. left. exact Hl.
  - apply (ContentShape_frame f); [exact Hc|]. intros l Hl. apply Hfr, not_tmp. right. exact Hl.
Qed.

Lemma CacheInv_index_frame f f' :
  CacheInv f -> IndexInv f' -> (forall l, ~ is_index l -> lookup f' l = lookup f l) -> CacheInv f'.
Proof.
  intros (_ & Hc & Ht) Hi Hfr. split; [exact Hi|split].
  - apply (ContentShape_frame f); [exact Hc|]. intros l Hl. apply Hfr. intros H. exact (index_not_content l H Hl).
  - apply (TmpShape_frame f); [exact Ht|]. apply Hfr. intros H. exact (index_not_tmp _ H (or_introl eq_refl)).
Qed.

Lemma index_outside_content t f f' :
  tmpfile t -> (forall l, ~ is_content l -> l <> t -> lookup f' l = lookup f l) -> forall l, is_index l -> lookup f' l = lookup f l.
Proof. intros Ht Hfr l Hl. apply Hfr; [exact (index_not_content l Hl)|]. intros ->. exact (index_not_tmp _ Hl (or_intror Ht)). Qed.

Lemma close_writer_inv f w :
  WInv f w -> CacheInv f ->
  let cp := InCache (cpath hash (w_algo w) (w_data w)) in
  exists f', run (close_writer hash w) f = (Ok (sri_of hash (w_algo w) (w_data w)), f') /\ CacheInv f' /\
    lookup f' cp = Some (File (w_data w)) /\ lookup f' (w_tmp w) = None /\
    (forall l, ~ is_content l -> l <> w_tmp w -> lookup f' l = lookup f l) /\
    (forall l, is_content l -> l <> cp -> lookup f' l = lookup f l \/ (lookup f l = None /\ lookup f' l = Some Dir)).
Proof.
  intros Hw (Hi & Hc & Ht) cp. destruct (close_writer_ok hash f w HL Hw Hc) as (f' & Hr & Hcp & Htmp & Hc' & Hfr).
  fold cp in Hcp, Hfr. pose proof (proj1 Hw : tmpfile (w_tmp w)) as Htf.
  assert (forall l, ~ is_content l -> l <> w_tmp w -> lookup f' l = lookup f l) as Hfr'.
  { intros l H1 H2. destruct (Hfr l) as [H|(_ & _ & p & -> & _)]; [intros ->; apply H1; eexists; reflexivity|exact H2|exact H|].
    destruct H1. eexists. reflexivity. }
  exists f'. split; [exact Hr|]. split; [|split; [exact Hcp|split; [exact Htmp|split; [exact Hfr'|]]]].
  - split; [exact (IndexInv_frame f f' Hi (index_outside_content _ f f' Htf Hfr'))|split; [exact Hc'|]].
    apply (TmpShape_frame f); [exact Ht|]. apply Hfr'; [intros H; exact (content_not_tmp _ H (or_introl eq_refl))|].
    destruct Htf as [n ->]. discriminate.
  - intros l H1 H2. destruct (Hfr l H2) as [H|(H3 & H4 & _)]; auto. intros ->. exact (tmpfile_not_content _ Htf H1).
Qed.

(* the decision rule of [commit] (C08) *)
Definition declared_ok (o : wopts) (wsri : integrity) : option integrity :=
  match o_sri o with
  | Some d => match sri_matches d wsri with Some _ => Some d | None => None end
  | None => Some wsri
  end.

Definition commit_opts (o : wopts) (final : integrity) (written : N) : wopts :=
  mkWopts (o_algo o) (Some final) (match o_size o with Some s => Some s | None => Some written end)
          (o_time o) (o_meta o) (o_raw o).

Definition size_ok (o : wopts) (n : N) : bool :=
  match o_size o with Some s => N.eqb s n | None => true end.

Lemma declared_ok_none o wsri : o_sri o = None -> declared_ok o wsri = Some wsri.
Proof. intros H. unfold declared_ok. rewrite H. reflexivity. Qed.

Definition commit_rest (w : wstate) (now : N) (wsri : integrity) : prog (res integrity) :=
  let o := w_opts w in
  match declared_ok o wsri with
  | None => Ret (Err EIntegrity)
  | Some final =>
      match o_size o with
      | Some s => if N.eqb s (w_written w) then
                    match w_key w with
                    | Some key => insert hash key (commit_opts o final (w_written w)) now
                    | None => Ret (Ok wsri) end
                  else Ret (Err (ESizeMismatch s (w_written w)))
      | None => match w_key w with
                | Some key => insert hash key (commit_opts o final (w_written w)) now
                | None => Ret (Ok wsri) end
      end
  end.

Lemma commit_rest_eq w now wsri :
  (let o := w_opts w in
   match (match o_sri o with
          | Some d => match sri_matches d wsri with Some _ => Some d | None => None end
          | None => Some wsri end) with
   | None => Ret (Err EIntegrity)
   | Some final =>
       match (match o_size o with Some s => negb (N.eqb s (w_written w)) | None => false end), o_size o with
       | true, Some s => Ret (Err (ESizeMismatch s (w_written w)))
       | _, _ =>
           match w_key w with
           | Some key =>
               let o' := mkWopts (o_algo o) (Some final)
                                 (match o_size o with Some s => Some s | None => Some (w_written w) end)
                                 (o_time o) (o_meta o) (o_raw o) in
               insert hash key o' now
           | None => Ret (Ok wsri)
           end
       end
   end) = commit_rest w now wsri.
Proof.
  cbv zeta. unfold commit_rest, declared_ok, commit_opts.
  destruct (o_sri (w_opts w)) as [d|]; [destruct (sri_matches d wsri)|]; try reflexivity;
  destruct (o_size (w_opts w)) as [s|]; try reflexivity; destruct (N.eqb s (w_written w)); reflexivity.
Qed.

Lemma commit_rest_accept w now wsri final :
  declared_ok (w_opts w) wsri = Some final -> size_ok (w_opts w) (w_written w) = true ->
  commit_rest w now wsri =
  match w_key w with Some key => insert hash key (commit_opts (w_opts w) final (w_written w)) now | None => Ret (Ok wsri) end.
Proof. intros Hd Hs. unfold commit_rest, size_ok in *. rewrite Hd. destruct (o_size (w_opts w)); [rewrite Hs|]; reflexivity. Qed.

Section Commit.
Variables (f : fs) (w : wstate) (now : N).
Hypothesis Hw : WInv f w.
Hypothesis Hinv : CacheInv f.
Let data := w_data w.
Let a := w_algo w.
Let o := w_opts w.
Let wsri := sri_of hash a data.
Let f1 := snd (run (close_writer hash w) f).

Lemma commit_close : run (close_writer hash w) f = (Ok wsri, f1).
Proof.
  destruct (close_writer_inv f w Hw Hinv) as [f' [Hclose _]]. subst f1. rewrite Hclose. reflexivity.
Qed.

Lemma commit_run : run (commit hash w now) f = run (commit_rest w now wsri) f1.
Proof.
  unfold commit. rewrite (run_rbind_ok _ _ _ _ _ commit_close). fold o a data wsri.
  rewrite <- commit_rest_eq. reflexivity.
Qed.

Lemma written_is_len : w_written w = lenN data.
Proof. destruct Hw as [_ [H _]]. exact H. Qed.

(* (i) a declared integrity the data does not satisfy: integrity error, nothing inserted *)
Theorem commit_rejected_integrity :
  declared_ok o wsri = None -> run (commit hash w now) f = (Err EIntegrity, f1).
Proof. intros Hd. rewrite commit_run. unfold commit_rest. fold o. rewrite Hd. reflexivity. Qed.

(* (ii) otherwise, a declared size different from the bytes written: size mismatch, nothing inserted *)
Theorem commit_rejected_size final s :
  declared_ok o wsri = Some final -> o_size o = Some s -> s <> lenN data ->
  run (commit hash w now) f = (Err (ESizeMismatch s (lenN data)), f1).
Proof.
  intros Hd Hs Hne. rewrite commit_run. unfold commit_rest. fold o. rewrite Hd, Hs, written_is_len.
  apply N.eqb_neq in Hne. rewrite Hne. reflexivity.
Qed.

(* (iii) otherwise success: by address ... *)
Theorem commit_by_hash_ok final :
  declared_ok o wsri = Some final -> size_ok o (lenN data) = true -> w_key w = None ->
  run (commit hash w now) f = (Ok wsri, f1).
Proof. intros Hd Hs Hk. rewrite <- written_is_len in Hs. rewrite commit_run, (commit_rest_accept w now wsri final Hd Hs), Hk. reflexivity. Qed.

(* ... or keyed: the index insert of the complete new entry *)
Theorem commit_keyed_run final key :
  declared_ok o wsri = Some final -> size_ok o (lenN data) = true -> w_key w = Some key ->
  run (commit hash w now) f = run (insert hash key (commit_opts o final (lenN data)) now) f1.
Proof.
  intros Hd Hs Hk. rewrite <- written_is_len in Hs |- *. rewrite commit_run, (commit_rest_accept w now wsri final Hd Hs), Hk. reflexivity.
Qed.

End Commit.

Lemma read_hash_stored f a d :
  lookup f (InCache (cpath hash a d)) = Some (File d) -> run (read_hash hash (sri_of hash a d)) f = (Ok d, f).
Proof.
  intros H. unfold read_hash, with_cpath. rewrite (content_path_computed hash a d HL).
  unfold rbind. rewrite run_bind. unfold read_file. cbn [run]. rewrite (exec_readfile_file _ _ _ H). cbn [run].
  unfold check_res. rewrite sri_check_self. reflexivity.
Qed.

Lemma read_by_key f key m :
  IndexInv f -> abs_idx hash f key = Some m -> run (read hash key) f = run (read_hash hash (m_sri m)) f.
Proof.
  intros Hi Ha. unfold read, by_key, rbind. rewrite run_bind, (find_run hash f key Hi), Ha. reflexivity.
Qed.

Theorem commit_keyed_accepted f w now key final :
  WInv f w -> CacheInv f -> w_key w = Some key ->
  declared_ok (w_opts w) (sri_of hash (w_algo w) (w_data w)) = Some final ->
  size_ok (w_opts w) (lenN (w_data w)) = true ->
  wf_rec hash (smeta_of key (commit_opts (w_opts w) final (lenN (w_data w))) now) ->
  parse_entry_sri (sri_text final) = Some final ->
  fst (run (commit hash w now) f) = Ok final /\
  CacheInv (snd (run (commit hash w now) f)) /\
  (forall k, abs_idx hash (snd (run (commit hash w now) f)) k
             = if bytes_eqb k key then new_entry key (commit_opts (w_opts w) final (lenN (w_data w))) now
               else abs_idx hash f k) /\
  lookup (snd (run (commit hash w now) f)) (InCache (cpath hash (w_algo w) (w_data w))) = Some (File (w_data w)) /\
  lookup (snd (run (commit hash w now) f)) (w_tmp w) = None /\
  (forall l, ~ is_index l -> ~ is_content l -> l <> w_tmp w ->
             lookup (snd (run (commit hash w now) f)) l = lookup f l).
Proof.
  intros Hw Hinv Hk Hd Hs Hwf Hps.
  rewrite (commit_keyed_run f w now Hw Hinv final key Hd Hs Hk).
  destruct (close_writer_inv f w Hw Hinv) as (f1 & Hclose & Hinv1 & Hcp & Htmp & Hfr & _).
  rewrite Hclose. cbn [snd].
  set (o' := commit_opts (w_opts w) final (lenN (w_data w))) in *.
  destruct (insert_abs hash f1 key o' now (proj1 Hinv1) Hwf) as (Hi2 & Hres & Habs & Hfr2).
  { intros i Hi. unfold o', commit_opts in Hi. cbn [o_sri] in Hi. inversion Hi; subst i. exact Hps. }
  assert (forall l, ~ is_index l -> lookup (snd (run (insert hash key o' now) f1)) l = lookup f1 l) as Hfr2'.
  { intros l Hl. apply Hfr2. intros p E. apply Hl. exists p. exact E. }
  assert (~ is_index (w_tmp w)) as Hti by (intros H; exact (index_not_tmp _ H (or_intror (proj1 Hw)))).
  split; [rewrite Hres; reflexivity|].
  split; [exact (CacheInv_index_frame f1 _ Hinv1 Hi2 Hfr2')|].
  split.
  - intros k. rewrite Habs. destruct (bytes_eqb k key); [reflexivity|].
    exact (abs_idx_frame f f1 (index_outside_content _ f f1 (proj1 Hw) Hfr) k).
  - split; [rewrite Hfr2' by (intros H; exact (index_not_content _ H (ex_intro _ _ eq_refl))); exact Hcp|].
    split; [rewrite Hfr2' by exact Hti; exact Htmp|].
    intros l H1 H2 H3. rewrite Hfr2' by exact H1. apply Hfr; assumption.
Qed.

(* no declared integrity: the data is stored, the entry points at its address, it reads back; other keys keep theirs *)
Theorem commit_keyed_roundtrip f w now key :
  WInv f w -> CacheInv f -> w_key w = Some key -> o_sri (w_opts w) = None ->
  size_ok (w_opts w) (lenN (w_data w)) = true ->
  wf_rec hash (smeta_of key (commit_opts (w_opts w) (sri_of hash (w_algo w) (w_data w)) (lenN (w_data w))) now) ->
  fst (run (commit hash w now) f) = Ok (sri_of hash (w_algo w) (w_data w)) /\
  CacheInv (snd (run (commit hash w now) f)) /\
  lookup (snd (run (commit hash w now) f)) (InCache (cpath hash (w_algo w) (w_data w))) = Some (File (w_data w)) /\
  (forall k, k <> key -> abs_idx hash (snd (run (commit hash w now) f)) k = abs_idx hash f k) /\
  run (read hash key) (snd (run (commit hash w now) f)) = (Ok (w_data w), snd (run (commit hash w now) f)) /\
  run (read_hash hash (sri_of hash (w_algo w) (w_data w))) (snd (run (commit hash w now) f))
    = (Ok (w_data w), snd (run (commit hash w now) f)) /\
  exists m, run (find hash key) (snd (run (commit hash w now) f)) = (Ok (Some m), snd (run (commit hash w now) f)) /\
            m_key m = key /\ m_sri m = sri_of hash (w_algo w) (w_data w) /\
            m_size m = match o_size (w_opts w) with Some s => s | None => lenN (w_data w) end /\
            m_time m = match o_time (w_opts w) with Some t => t | None => now end /\
            m_metadata m = match o_meta (w_opts w) with Some j => j | None => JNull end /\
            m_raw m = o_raw (w_opts w).
Proof.
  intros Hw Hinv Hk Hns Hs Hwf.
  pose proof (declared_ok_none (w_opts w) (sri_of hash (w_algo w) (w_data w)) Hns) as Hd.
  destruct (commit_keyed_accepted f w now key _ Hw Hinv Hk Hd Hs Hwf (parse_entry_computed hash _ _ HL))
    as [Hres [Hinv' [Habs [Hcp [Htmp Hfr]]]]].
  set (f' := snd (run (commit hash w now) f)) in *.
  split; [exact Hres|]. split; [exact Hinv'|]. split; [exact Hcp|].
  split; [intros k Hne; rewrite Habs, (proj2 (bytes_eqb_neq k key) Hne); reflexivity|].
  pose proof (Habs key) as Hkey. rewrite bytes_eqb_refl in Hkey. unfold new_entry, commit_opts in Hkey. cbn [o_sri o_time o_size o_meta o_raw] in Hkey.
  destruct Hinv' as [Hi' _].
  split; [|split].
  - rewrite (read_by_key f' key _ Hi' Hkey). cbn [m_sri]. apply read_hash_stored. exact Hcp.
  - apply read_hash_stored. exact Hcp.
  - eexists. split; [rewrite (find_run hash f' key Hi'), Hkey; reflexivity|].
    cbn [m_key m_sri m_size m_time m_metadata m_raw]. repeat split.
    destruct (o_size (w_opts w)); reflexivity.
Qed.

Theorem commit_by_hash_roundtrip f w now :
  WInv f w -> CacheInv f -> w_key w = None -> o_sri (w_opts w) = None ->
  size_ok (w_opts w) (lenN (w_data w)) = true ->
  fst (run (commit hash w now) f) = Ok (sri_of hash (w_algo w) (w_data w)) /\
  CacheInv (snd (run (commit hash w now) f)) /\
  lookup (snd (run (commit hash w now) f)) (InCache (cpath hash (w_algo w) (w_data w))) = Some (File (w_data w)) /\
  run (read_hash hash (sri_of hash (w_algo w) (w_data w))) (snd (run (commit hash w now) f))
    = (Ok (w_data w), snd (run (commit hash w now) f)) /\
  (forall k, abs_idx hash (snd (run (commit hash w now) f)) k = abs_idx hash f k).
Proof.
  intros Hw Hinv Hk Hns Hs.
  pose proof (declared_ok_none (w_opts w) (sri_of hash (w_algo w) (w_data w)) Hns) as Hd.
  rewrite (commit_by_hash_ok f w now Hw Hinv _ Hd Hs Hk).
  destruct (close_writer_inv f w Hw Hinv) as [f1 [Hclose [Hinv1 [Hcp [Htmp [Hfr Hfrc]]]]]].
  rewrite Hclose. cbn [fst snd]. split; [reflexivity|]. split; [exact Hinv1|]. split; [exact Hcp|].
  split; [apply read_hash_stored; exact Hcp|].
  exact (abs_idx_frame f f1 (index_outside_content _ f f1 (proj1 Hw) Hfr)).
Qed.

(* a rejected commit leaves every index location as it was (the key's previous mapping is untouched) *)
Theorem commit_rejected_frame f w now :
  WInv f w -> CacheInv f ->
  (declared_ok (w_opts w) (sri_of hash (w_algo w) (w_data w)) = None \/
   exists s, o_size (w_opts w) = Some s /\ s <> lenN (w_data w)) ->
  (fst (run (commit hash w now) f) = Err EIntegrity \/
   exists s, fst (run (commit hash w now) f) = Err (ESizeMismatch s (lenN (w_data w)))) /\
  (forall l, is_index l -> lookup (snd (run (commit hash w now) f)) l = lookup f l) /\
  (forall k, abs_idx hash (snd (run (commit hash w now) f)) k = abs_idx hash f k) /\
  lookup (snd (run (commit hash w now) f)) (w_tmp w) = None /\
  CacheInv (snd (run (commit hash w now) f)).
Proof.
  intros Hw Hinv Hrej.
  destruct (close_writer_inv f w Hw Hinv) as [f1 [Hclose [Hinv1 [Hcp [Htmp [Hfr Hfrc]]]]]].
  assert (snd (run (close_writer hash w) f) = f1) as Ef1 by (rewrite Hclose; reflexivity).
  pose proof (index_outside_content _ f f1 (proj1 Hw) Hfr) as Hidx.
  destruct (declared_ok (w_opts w) (sri_of hash (w_algo w) (w_data w))) as [final|] eqn:Hd.
  - destruct Hrej as [?|[s [Hs Hne]]]; [discriminate|].
    rewrite (commit_rejected_size f w now Hw Hinv final s Hd Hs Hne), Ef1. cbn [fst snd].
    split; [right; exists s; reflexivity|]. split; [exact Hidx|]. split; [apply abs_idx_frame; exact Hidx|]. auto.
  - rewrite (commit_rejected_integrity f w now Hw Hinv Hd), Ef1. cbn [fst snd].
    split; [left; reflexivity|]. split; [exact Hidx|]. split; [apply abs_idx_frame; exact Hidx|]. auto.
Qed.

(* a streamed write: open, any chunking, commit *)
Definition stream_write (fl : flavour) (key : option bytes) (o : wopts) (cs : list bytes) (now : N)
  : prog (res integrity) :=
  rbind (open_writer fl key o) (fun w => rbind (write_chunks w cs) (fun w' => commit hash w' now)).

Definition algo_of (o : wopts) : algo := match o_algo o with Some a => a | None => Sha256 end.

Lemma stream_write_decomp f fl key o cs :
  CacheInv f ->
  exists w0 f1 w f2,
    run (open_writer fl key o) f = (Ok w0, f1) /\ run (write_chunks w0 cs) f1 = (Ok w, f2) /\
    WInv f2 w /\ CacheInv f2 /\ w_key w = key /\ w_opts w = o /\ w_algo w = algo_of o /\ w_data w = List.concat cs /\
    lookup f (w_tmp w) = None /\ (forall l, ~ is_tmp l -> lookup f2 l = lookup f l).
Proof.
  intros Hinv.
  destruct (open_writer_ok f fl key o (proj2 (proj2 Hinv))) as (w0 & f1 & Hr1 & Hw1 & Hd1 & Hk1 & Ho1 & Ha1 & Hn1 & Htd & Hfr1).
  destruct (write_chunks_ok f1 w0 cs Hw1) as (w & f2 & Hr2 & Hw2 & (S1 & S2 & S3 & S4) & Hd2 & Hfr2).
  pose proof (proj1 Hw1 : tmpfile (w_tmp w0)) as Ht0.
  assert (forall l, ~ is_tmp l -> lookup f2 l = lookup f l) as Hfr.
  { intros l Hl. assert (l <> w_tmp w0) as Hne by (intros ->; apply Hl; right; exact Ht0).
    rewrite (Hfr2 l Hne). apply Hfr1; [exact Hne|]. intros ->. apply Hl. left. reflexivity. }
  exists w0, f1, w, f2. rewrite Hd1 in Hd2. cbn [app] in Hd2. unfold algo_of.
  split; [exact Hr1|]. split; [exact Hr2|]. split; [exact Hw2|]. split; [|repeat (split; [congruence|]); exact Hfr].
  apply (CacheInv_tmp_frame f); [exact Hinv| |exact Hfr]. right. rewrite Hfr2; [exact Htd|]. destruct Ht0 as [n ->]. discriminate.
Qed.

Lemma stream_write_run f fl key o cs now w0 f1 w f2 :
  run (open_writer fl key o) f = (Ok w0, f1) -> run (write_chunks w0 cs) f1 = (Ok w, f2) ->
  run (stream_write fl key o cs now) f = run (commit hash w now) f2.
Proof. intros H1 H2. unfold stream_write. rewrite (run_rbind_ok _ _ _ _ _ H1), (run_rbind_ok _ _ _ _ _ H2). reflexivity. Qed.

Theorem stream_write_keyed_roundtrip f fl key o cs now :
  CacheInv f -> o_sri o = None -> size_ok o (lenN (List.concat cs)) = true ->
  let data := List.concat cs in let a := algo_of o in
  wf_rec hash (smeta_of key (commit_opts o (sri_of hash a data) (lenN data)) now) ->
  let f' := snd (run (stream_write fl (Some key) o cs now) f) in
  fst (run (stream_write fl (Some key) o cs now) f) = Ok (sri_of hash a data) /\
  CacheInv f' /\
  run (read hash key) f' = (Ok data, f') /\
  run (read_hash hash (sri_of hash a data)) f' = (Ok data, f') /\
  (forall k, k <> key -> abs_idx hash f' k = abs_idx hash f k) /\
  exists m, run (find hash key) f' = (Ok (Some m), f') /\ m_key m = key /\ m_sri m = sri_of hash a data /\
            m_size m = match o_size o with Some s => s | None => lenN data end /\
            m_time m = match o_time o with Some t => t | None => now end /\
            m_metadata m = match o_meta o with Some j => j | None => JNull end /\ m_raw m = o_raw o.
Proof.
  intros Hinv Hns Hs data a Hwf. subst data a. cbv zeta.
  destruct (stream_write_decomp f fl (Some key) o cs Hinv) as (w0 & f1 & w & f2 & Hr1 & Hr2 & Hw & Hi & Hk & Ho & Ha & Hd & _ & Hfr).
  rewrite (stream_write_run _ _ _ _ _ now _ _ _ _ Hr1 Hr2). rewrite <- Ho, <- Ha, <- Hd in *.
  destruct (commit_keyed_roundtrip f2 w now key Hw Hi Hk Hns Hs Hwf) as (R1 & R2 & _ & Rk & R3 & R4 & R5).
  repeat (split; [assumption|]). split; [|exact R5].
  intros k Hne. rewrite (Rk k Hne). apply abs_idx_frame. intros l Hl. apply Hfr. exact (index_not_tmp l Hl).
Qed.

Theorem stream_write_by_hash_roundtrip f fl o cs now :
  CacheInv f -> o_sri o = None -> size_ok o (lenN (List.concat cs)) = true ->
  let data := List.concat cs in let a := algo_of o in
  let f' := snd (run (stream_write fl None o cs now) f) in
  fst (run (stream_write fl None o cs now) f) = Ok (sri_of hash a data) /\
  CacheInv f' /\
  run (read_hash hash (sri_of hash a data)) f' = (Ok data, f') /\
  (forall k, abs_idx hash f' k = abs_idx hash f k).
Proof.
  intros Hinv Hns Hs data a. subst data a. cbv zeta.
  destruct (stream_write_decomp f fl None o cs Hinv) as (w0 & f1 & w & f2 & Hr1 & Hr2 & Hw & Hi & Hk & Ho & Ha & Hd & _ & Hfr).
  rewrite (stream_write_run _ _ _ _ _ now _ _ _ _ Hr1 Hr2). rewrite <- Ho, <- Ha, <- Hd in *.
  destruct (commit_by_hash_roundtrip f2 w now Hw Hi Hk Hns Hs) as (R1 & R2 & _ & R3 & R4).
  repeat (split; [assumption|]). intros k. rewrite R4.
  apply abs_idx_frame. intros l Hl. apply Hfr. exact (index_not_tmp l Hl).
Qed.

Theorem stream_write_keyed_stored f fl key o cs now :
  CacheInv f -> o_sri o = None -> size_ok o (lenN (List.concat cs)) = true ->
  let data := List.concat cs in let a := algo_of o in
  wf_rec hash (smeta_of key (commit_opts o (sri_of hash a data) (lenN data)) now) ->
  lookup (snd (run (stream_write fl (Some key) o cs now) f)) (InCache (cpath hash a data)) = Some (File data).
Proof.
  intros Hinv Hns Hs data a Hwf. subst data a.
  destruct (stream_write_decomp f fl (Some key) o cs Hinv) as (w0 & f1 & w & f2 & Hr1 & Hr2 & Hw & Hi & Hk & Ho & Ha & Hd & _).
  rewrite (stream_write_run _ _ _ _ _ now _ _ _ _ Hr1 Hr2). rewrite <- Ho, <- Ha, <- Hd in *.
  exact (proj1 (proj2 (proj2 (commit_keyed_roundtrip f2 w now key Hw Hi Hk Hns Hs Hwf)))).
Qed.

Theorem stream_write_by_hash_stored f fl o cs now :
  CacheInv f -> o_sri o = None -> size_ok o (lenN (List.concat cs)) = true ->
  let data := List.concat cs in let a := algo_of o in
  lookup (snd (run (stream_write fl None o cs now) f)) (InCache (cpath hash a data)) = Some (File data).
Proof.
  intros Hinv Hns Hs data a. subst data a.
  destruct (stream_write_decomp f fl None o cs Hinv) as (w0 & f1 & w & f2 & Hr1 & Hr2 & Hw & Hi & Hk & Ho & Ha & Hd & _).
  rewrite (stream_write_run _ _ _ _ _ now _ _ _ _ Hr1 Hr2). rewrite <- Ho, <- Ha, <- Hd in *.
  exact (proj1 (proj2 (proj2 (commit_by_hash_roundtrip f2 w now Hw Hi Hk Hns Hs)))).
Qed.

Definition open_step_on (T : loc -> Prop) (c : sys) : Prop :=
  match c with MkdirAll p => p = tmp_dir | CreateTmp => True | Fallocate l _ | Unlink l => T l | _ => False end.

(* every step of a write of [data] under algorithm [a]: a step of opening a writer, a step of the writer on its own temp
   file (one that satisfies [T]), a step of publishing that file at the path of the digest, or (keyed) a step of the
   index append; and the publishing rename is issued when the temp file holds exactly [data] *)
Definition write_step_on (T : loc -> Prop) (a : algo) (data : bytes) (key : option bytes) (c : sys) (f : fs) : Prop :=
  (open_step_on T c \/ (exists t, T t /\ (tmp_step t c \/ publish_step t (cpath hash a data) c)) \/
   exists k, key = Some k /\ index_step (bucket_path hash k) c) /\ rename_ok data c f.

Definition write_step : algo -> bytes -> option bytes -> sys -> fs -> Prop := write_step_on tmpfile.

Lemma open_step_on_impl (T T' : loc -> Prop) c : (forall t, T t -> T' t) -> open_step_on T c -> open_step_on T' c.
Proof. intros H. destruct c; cbn; auto. Qed.

Lemma write_step_on_impl (T T' : loc -> Prop) a data key c f :
  (forall t, T t -> T' t) -> write_step_on T a data key c f -> write_step_on T' a data key c f.
Proof. intros H [[Ho|[(t & Ht & Hs)|Hi]] Hr]; (split; [|exact Hr]); eauto 6 using open_step_on_impl. Qed.

Lemma open_step_write_step_on T a data key c f : open_step_on T c -> write_step_on T a data key c f.
Proof. intros H. split; [left; exact H|]. destruct c; try exact I; contradiction. Qed.

Lemma tmp_step_write_step_on (T : loc -> Prop) a data key t c f : T t -> tmp_step t c -> write_step_on T a data key c f.
Proof. intros Ht H. split; [right; left; eauto|exact (tmp_step_rename_ok t data c f H)]. Qed.

Lemma write_chunks_steps f w cs : WInv f w -> steps_ok (fun c _ => tmp_step (w_tmp w) c) (write_chunks w cs) f.
Proof.
  revert f w. induction cs as [|c cs IH]; intros f w Hw; cbn [write_chunks]; [exact I|].
  apply steps_ok_bind. split; [apply (all_steps_ok (tmp_step (w_tmp w))); [auto|apply write_chunk_steps]|].
  destruct (write_chunk_ok f w c Hw) as (w1 & f1 & Hr & Hw1 & (_ & _ & _ & Et) & _). rewrite Hr. cbn [fst snd].
  rewrite <- Et. apply IH. exact Hw1.
Qed.

Lemma commit_rest_no_rename w now wsri data : all_steps (fun c => forall g, rename_ok data c g) (commit_rest w now wsri).
Proof.
  unfold commit_rest. destruct (declared_ok (w_opts w) wsri); [|exact I].
  destruct (o_size (w_opts w)); [destruct (N.eqb _ _)|]; try exact I; destruct (w_key w) as [key|]; try exact I.
  all: exact (all_steps_impl _ _ _ (fun c H g => index_step_rename_ok _ data c g H) (insert_steps hash key _ now)).
Qed.

Lemma commit_step_write_step (T : loc -> Prop) w c f :
  T (w_tmp w) -> commit_step hash w c -> rename_ok (w_data w) c f -> write_step_on T (w_algo w) (w_data w) (w_key w) c f.
Proof.
  intros Ht Hc Hr. split; [|exact Hr]. destruct Hc as [[H|(cp & E & H)]|H]; [right; left; eauto|right; left|right; right; exact H].
  rewrite (content_path_computed hash _ _ HL) in E. inversion E; subst cp. eauto.
Qed.

Lemma commit_write_steps_on (T : loc -> Prop) f w now :
  T (w_tmp w) -> steps_ok (rename_ok (w_data w)) (close_writer hash w) f ->
  steps_ok (write_step_on T (w_algo w) (w_data w) (w_key w)) (commit hash w now) f.
Proof.
  intros Ht Hcl.
  apply (steps_ok_impl (fun c g => commit_step hash w c /\ rename_ok (w_data w) c g)).
  - intros c g [Hc Hr]. exact (commit_step_write_step T w c g Ht Hc Hr).
  - apply steps_ok_and; [apply (all_steps_ok (commit_step hash w)); [auto|apply commit_steps]|].
    unfold commit, rbind. apply steps_ok_bind. split; [exact Hcl|].
    destruct (fst (run (close_writer hash w) f)) as [wsri| | | |]; try exact I.
    pose proof (commit_rest_eq w now wsri) as E. cbv zeta in E |- *. rewrite E.
    exact (all_steps_ok (fun c => forall g, rename_ok (w_data w) c g) _ _ (fun c g H => H g) (commit_rest_no_rename w now wsri _) _).
Qed.

(* the temp file of a write from [f] is one that [f] does not have: no step after the opening names a temp file that
   was there at the start *)
Definition fresh_tmp (f : fs) (t : loc) : Prop := tmpfile t /\ lookup f t = None.

Lemma open_writer_steps_fresh f fl key o : steps_ok (fun c _ => open_step_on (fresh_tmp f) c) (open_writer fl key o) f.
Proof.
  unfold open_writer, rbind. apply steps_ok_bind. split.
  { apply (all_steps_ok (open_step_on (fresh_tmp f))); [auto|apply all_steps_step_ok; reflexivity]. }
  rewrite run_step_ok_snd. set (f1 := snd (exec (MkdirAll tmp_dir) f)).
  destruct (fst (run (step_ok (MkdirAll tmp_dir)) f)); try exact I.
  split; [exact I|]. unfold exec at 1. destruct (is_dir f1 tmp_dir); [|exact I].
  assert (fresh_tmp f (InCache (tmp_dir ++ [fresh f1]))) as Ht.
  { split; [eexists; reflexivity|].
    destruct (mkdirs_effect f (prefixes tmp_dir) f1 (InCache (tmp_dir ++ [fresh f1])) (or_introl eq_refl)) as [E|(E & _)]; [|exact E].
    rewrite <- E. apply (fresh_absent ). }
  destruct (content_size fl key o) as [sz|]; [destruct ((1 <=? sz) && (sz <=? max_mmap))|]; try exact I.
  split; [exact Ht|]. destruct (exec (Fallocate _ sz) _) as [[] g]; try exact I.
  split; [exact Ht|]. destruct (exec _ g). exact I.
Qed.

Lemma write_steps_after_open f fl key o data (k : wstate -> prog (res integrity)) :
  (forall w f1, WInv f1 w -> fresh_tmp f (w_tmp w) -> w_data w = [] -> w_key w = key -> w_algo w = algo_of o ->
     steps_ok (write_step_on (fresh_tmp f) (algo_of o) data key) (k w) f1) ->
  steps_ok (write_step_on (fresh_tmp f) (algo_of o) data key) (rbind (open_writer fl key o) k) f.
Proof.
  intros Hk. unfold rbind. apply steps_ok_bind. split.
  - apply (steps_ok_impl (fun c _ => open_step_on (fresh_tmp f) c)); [intros c g; apply open_step_write_step_on|apply open_writer_steps_fresh].
  - destruct (run (open_writer fl key o) f) as [[w| | | |] f1] eqn:Eo; try exact I. cbn [fst snd].
    destruct (open_writer_result f fl key o w f1 Eo) as (Hw & Hd & Hk' & _ & Ha & Hn & _).
    exact (Hk w f1 Hw (conj (proj1 Hw) Hn) Hd Hk' Ha).
Qed.

Theorem stream_write_steps_fresh f fl key o cs now :
  steps_ok (write_step_on (fresh_tmp f) (algo_of o) (List.concat cs) key) (stream_write fl key o cs now) f.
Proof.
  apply write_steps_after_open. intros w f1 Hw Ht Hd Hk Ha.
  destruct (write_chunks_ok f1 w cs Hw) as (w2 & f2 & Hr2 & Hw2 & (Hk2 & _ & Ha2 & Et2) & Hd2 & _).
  unfold rbind. apply steps_ok_bind. split.
  - apply (steps_ok_impl (fun c _ => tmp_step (w_tmp w) c)); [|apply write_chunks_steps; exact Hw].
    intros c g. apply tmp_step_write_step_on. exact Ht.
  - rewrite Hr2. cbn [fst snd]. rewrite <- Et2 in Ht.
    pose proof (commit_write_steps_on _ f2 w2 now Ht (close_writer_rename hash f2 w2 Hw2)) as H.
    rewrite Ha2, Hd2, Hk2, Ha, Hd, Hk in H. exact H.
Qed.

Theorem oneshot_steps_fresh f fl key o data now :
  steps_ok (write_step_on (fresh_tmp f) (algo_of o) data key) (oneshot hash fl key o data now) f.
Proof.
  apply write_steps_after_open. intros w f1 Hw Ht Hd Hk Ha. destruct data as [|b data].
  { pose proof (commit_write_steps_on _ f1 w now Ht (close_writer_rename hash f1 w Hw)) as H. rewrite Ha, Hd, Hk in H. exact H. }
  destruct (write_chunk_ok f1 w (b :: data) Hw) as (w2 & f2 & Hr2 & Hw2 & (Hk2 & _ & Ha2 & Et2) & Hd2 & _).
  apply steps_ok_bind. split.
  - apply (all_steps_ok (tmp_step (w_tmp w))); [|apply write_chunk_steps].
    intros c g. apply tmp_step_write_step_on. exact Ht.
  - rewrite Hr2. cbn [fst snd]. rewrite <- Et2 in Ht.
    pose proof (commit_write_steps_on _ f2 w2 now Ht (close_writer_rename hash f2 w2 Hw2)) as H.
    rewrite Ha2, Hd2, Hk2, Ha, Hd, Hk in H. exact H.
Qed.

Lemma fresh_tmp_write_step f0 a data key c f : write_step_on (fresh_tmp f0) a data key c f -> write_step a data key c f.
Proof. apply write_step_on_impl. intros t H. exact (proj1 H). Qed.

Theorem stream_write_steps f fl key o cs now :
  steps_ok (write_step (algo_of o) (List.concat cs) key) (stream_write fl key o cs now) f.
Proof. exact (steps_ok_impl _ _ _ _ (fresh_tmp_write_step f _ _ _) (stream_write_steps_fresh f fl key o cs now)). Qed.

Theorem oneshot_steps f fl key o data now :
  steps_ok (write_step (algo_of o) data key) (oneshot hash fl key o data now) f.
Proof. exact (steps_ok_impl _ _ _ _ (fresh_tmp_write_step f _ _ _) (oneshot_steps_fresh f fl key o data now)). Qed.

(* the one-shot entry points are streamed writes with zero or one chunk *)
Lemma oneshot_stream fl key o data now f :
  CacheInv f ->
  run (oneshot hash fl key o data now) f
  = run (stream_write fl key o (match data with [] => [] | _ => [data] end) now) f.
Proof.
  intros Hinv. unfold oneshot, stream_write.
  destruct (open_writer_ok f fl key o (proj2 (proj2 Hinv))) as (w & f1 & Hr1 & Hw1 & _).
  rewrite !(run_rbind_ok _ _ _ _ _ Hr1).
  destruct data as [|x data]; [cbn [write_chunks]; unfold rbind at 1; rewrite run_bind; reflexivity|].
  cbn [write_chunks].
  destruct (write_chunk_ok f1 w (x :: data) Hw1) as (w2 & f2 & Hr2 & _).
  rewrite run_bind, Hr2. unfold rbind at 1. rewrite run_bind. unfold rbind at 1. rewrite run_bind, Hr2. reflexivity.
Qed.

Lemma write_opts_ok fl a data :
  o_sri (write_opts fl a data) = None /\ size_ok (write_opts fl a data) (lenN data) = true /\ algo_of (write_opts fl a data) = a.
Proof. destruct fl; repeat split. apply N.eqb_refl. Qed.

Lemma concat_oneshot (data : bytes) : List.concat (match data with [] => [] | _ => [data] end) = data.
Proof. destruct data; [reflexivity|]. cbn [List.concat]. apply app_nil_r. Qed.

Theorem write_roundtrip f fl a key data now :
  CacheInv f ->
  wf_rec hash (smeta_of key (commit_opts (write_opts fl a data) (sri_of hash a data) (lenN data)) now) ->
  let f' := snd (run (write hash fl a key data now) f) in
  fst (run (write hash fl a key data now) f) = Ok (sri_of hash a data) /\
  CacheInv f' /\
  run (read hash key) f' = (Ok data, f') /\
  run (read_hash hash (sri_of hash a data)) f' = (Ok data, f') /\
  (forall k, k <> key -> abs_idx hash f' k = abs_idx hash f k) /\
  exists m, run (find hash key) f' = (Ok (Some m), f') /\ m_key m = key /\ m_sri m = sri_of hash a data /\
            m_size m = lenN data /\ m_time m = now /\ m_metadata m = JNull /\ m_raw m = None.
Proof.
  intros Hinv Hwf. cbv zeta. unfold write. rewrite (oneshot_stream _ _ _ _ _ _ Hinv).
  destruct (write_opts_ok fl a data) as (Hns & Hsz & Ea).
  pose proof (stream_write_keyed_roundtrip f fl key (write_opts fl a data) (match data with [] => [] | _ => [data] end) now Hinv Hns) as H.
  rewrite concat_oneshot, Ea in H. destruct (H Hsz Hwf) as (R1 & R2 & R3 & R4 & R5 & m & M1 & M2 & M3 & M4 & M5 & M6 & M7).
  repeat (split; [assumption|]). exists m. rewrite M4, M5, M6, M7. destruct fl; repeat split; assumption.
Qed.

Theorem write_stored f fl a key data now :
  CacheInv f ->
  wf_rec hash (smeta_of key (commit_opts (write_opts fl a data) (sri_of hash a data) (lenN data)) now) ->
  lookup (snd (run (write hash fl a key data now) f)) (InCache (cpath hash a data)) = Some (File data).
Proof.
  intros Hinv Hwf. unfold write. rewrite (oneshot_stream _ _ _ _ _ _ Hinv).
  destruct (write_opts_ok fl a data) as (Hns & Hsz & Ea).
  pose proof (stream_write_keyed_stored f fl key (write_opts fl a data) (match data with [] => [] | _ => [data] end) now Hinv Hns) as H.
  rewrite concat_oneshot, Ea in H. exact (H Hsz Hwf).
Qed.

Theorem write_hash_roundtrip f fl a data :
  CacheInv f ->
  let f' := snd (run (write_hash hash fl a data) f) in
  fst (run (write_hash hash fl a data) f) = Ok (sri_of hash a data) /\
  CacheInv f' /\
  run (read_hash hash (sri_of hash a data)) f' = (Ok data, f') /\
  (forall k, abs_idx hash f' k = abs_idx hash f k).
Proof.
  intros Hinv. cbv zeta. unfold write_hash. rewrite (oneshot_stream _ _ _ _ _ _ Hinv).
  destruct (write_opts_ok Async a data) as (Hns & Hsz & _).
  pose proof (stream_write_by_hash_roundtrip f fl (write_opts Async a data) (match data with [] => [] | _ => [data] end) 0 Hinv Hns) as H.
  rewrite concat_oneshot in H. exact (H Hsz).
Qed.

Theorem write_hash_stored f fl a data :
  CacheInv f -> lookup (snd (run (write_hash hash fl a data) f)) (InCache (cpath hash a data)) = Some (File data).
Proof.
  intros Hinv. unfold write_hash. rewrite (oneshot_stream _ _ _ _ _ _ Hinv).
  destruct (write_opts_ok Async a data) as (Hns & Hsz & _).
  pose proof (stream_write_by_hash_stored f fl (write_opts Async a data) (match data with [] => [] | _ => [data] end) 0 Hinv Hns) as H.
  rewrite concat_oneshot in H. exact (H Hsz).
Qed.

(* C14: what does NOT change a lookup *)
Theorem open_no_effect f fl key o k : abs_idx hash (snd (run (open_writer fl key o) f)) k = abs_idx hash f k.
Proof.
  apply abs_idx_frame. intros l Hl.
  exact (touches_frame is_tmp _ f l (all_steps_impl _ _ _ open_step_touches (open_writer_steps fl key o)) (index_not_tmp l Hl)).
Qed.

Theorem chunk_no_effect f w s l : l <> w_tmp w -> lookup (snd (run (write_chunk w s) f)) l = lookup f l.
Proof.
  intros Hl. exact (touches_frame (eq (w_tmp w)) _ f l (all_steps_impl _ _ _ (tmp_step_touches _) (write_chunk_steps w s)) (fun E => Hl (eq_sym E))).
Qed.

Theorem drop_no_trace f w :
  WInv f w ->
  lookup (snd (run (drop_writer w) f)) (w_tmp w) = None /\
  forall l, l <> w_tmp w -> lookup (snd (run (drop_writer w) f)) l = lookup f l.
Proof.
  intros Hw. destruct (drop_writer_ok f w Hw) as [f' [Hr [H1 H2]]]. rewrite Hr. cbn [snd]. auto.
Qed.

Lemma algo_name_inj a b : algo_name a = algo_name b -> a = b.
Proof. destruct a, b; intros H; try reflexivity; discriminate H. Qed.

Theorem algos_disjoint a1 d1 a2 d2 : a1 <> a2 -> cpath hash a1 d1 <> cpath hash a2 d2.
Proof. intros Hne E. unfold cpath in E. injection E as H1 _ _. apply Hne. apply algo_name_inj. exact H1. Qed.

(* re-storing bytes whose address already exists: the stored copy stays byte-identical, no other content
   file appears or changes *)
Theorem restore_idempotent f w :
  WInv f w -> CacheInv f ->
  lookup f (InCache (cpath hash (w_algo w) (w_data w))) = Some (File (w_data w)) ->
  forall l, is_content l ->
    lookup (snd (run (close_writer hash w) f)) l = lookup f l \/
    (lookup f l = None /\ lookup (snd (run (close_writer hash w) f)) l = Some Dir).
Proof.
  intros Hw Hinv Hpre l Hl.
  destruct (close_writer_inv f w Hw Hinv) as [f1 [Hclose [_ [Hcp [_ [_ Hfrc]]]]]]. rewrite Hclose. cbn [snd].
  destruct (loc_eq_dec l (InCache (cpath hash (w_algo w) (w_data w)))) as [->|Hne].
  - left. rewrite Hcp, Hpre. reflexivity.
  - apply Hfrc; assumption.
Qed.

End C.
