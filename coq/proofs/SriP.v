(* SriP.v — facts about integrity values computed by the library itself. *)
From CC Require Import Bytes Codec Sri BytesP CodecP.

Section S.
Variable hash : algo -> bytes -> bytes.

Lemma algo_eqb_refl a : algo_eqb a a = true.
Proof. destruct a; reflexivity. Qed.

Lemma algo_eqb_eq a b : algo_eqb a b = true <-> a = b.
Proof. destruct a, b; split; intros H; try reflexivity; try discriminate. Qed.

Lemma hashv_eqb_eq a b : hashv_eqb a b = true <-> a = b.
Proof.
  destruct a as [aa ad], b as [ba bd]. unfold hashv_eqb. cbn [h_algo h_digest]. rewrite andb_true_iff, algo_eqb_eq, bytes_eqb_eq.
  split; [intros [-> ->]; reflexivity|intros H; inversion H; auto].
Qed.

Lemma sri_check_computed a d0 d :
  sri_check hash (sri_of hash a d0) d = Some true <-> hash a d = hash a d0.
Proof.
  unfold sri_check, sri_of. cbn [pick_algorithm h_algo take_while_algo]. rewrite algo_eqb_refl.
  cbn [existsb]. rewrite orb_false_r. split.
  - intros H. inversion H as [H1]. apply hashv_eqb_eq in H1. inversion H1 as [H2]. apply b64_encode_inj in H2. exact H2.
  - intros ->. f_equal. apply hashv_eqb_eq. reflexivity.
Qed.

Lemma sri_check_self a d : sri_check hash (sri_of hash a d) d = Some true.
Proof. apply sri_check_computed. reflexivity. Qed.

Lemma sri_matches_self a d : sri_matches (sri_of hash a d) (sri_of hash a d) = Some a.
Proof.
  unfold sri_matches, sri_of. cbn [pick_algorithm h_algo existsb]. rewrite !algo_eqb_refl.
  cbn [andb]. assert (hashv_eqb (mkHash a (b64_encode (hash a d))) (mkHash a (b64_encode (hash a d))) = true) as ->
    by (apply hashv_eqb_eq; reflexivity). reflexivity.
Qed.

Section Text.
Local Open Scope N_scope.

(* neither white space (a word separator) nor '-' (the separator inside a word) *)
Definition clean_b64 (x : byte) : bool := negb (is_space x) && negb (Byte.eqb x x2d).

Lemma clean_no_space l : forallb clean_b64 l = true -> forallb (fun x => negb (is_space x)) l = true.
Proof.
  rewrite !forallb_forall. intros H x Hx. apply H, andb_true_iff in Hx. apply Hx.
Qed.

Lemma clean_no_dash l : forallb clean_b64 l = true -> forall x, In x l -> Byte.eqb x x2d = false.
Proof.
  rewrite forallb_forall. intros H x Hx. apply H, andb_true_iff in Hx. apply negb_true_iff, Hx.
Qed.

Lemma enc6_clean n : n < 64 -> clean_b64 (enc6 n) = true.
Proof. apply (sextets_all (fun n => clean_b64 (enc6 n))). reflexivity. Qed.

Lemma b64_encode_clean l : forallb clean_b64 (b64_encode l) = true.
Proof.
  induction l as [|a|a b|a b c t IH] using bytes_ind3; cbn [b64_encode forallb].
  - reflexivity.
  - destruct (sextets8 a) as (S0 & S1 & _). rewrite !enc6_clean by assumption. reflexivity.
  - destruct (sextets16 a b) as (S0 & S1 & S2 & _). rewrite !enc6_clean by assumption. reflexivity.
  - destruct (octets24 a b c) as (Hn & _). destruct (sextets24 _ Hn) as (S0 & S1 & S2 & S3 & _).
    rewrite !enc6_clean by assumption. exact IH.
Qed.

Lemma words_aux_clean l cur : forallb (fun x => negb (is_space x)) l = true ->
  words_aux l cur = match rev cur ++ l with [] => [] | w => [w] end.
Proof.
  revert cur. induction l as [|x l IH]; intros cur H; cbn [words_aux].
  - rewrite app_nil_r. destruct cur as [|c cur]; [reflexivity|]. cbn [rev]. destruct (rev cur ++ [c]) eqn:E; [|reflexivity].
    destruct (rev cur); discriminate.
  - cbn [forallb] in H. apply andb_true_iff in H as [H1 H2]. apply negb_true_iff in H1. rewrite H1.
    rewrite IH by exact H2. cbn [rev]. rewrite <- app_assoc. reflexivity.
Qed.

Lemma algo_name_facts a : parse_algo (algo_name a) = Some a /\ forallb clean_b64 (algo_name a) = true.
Proof. destruct a; split; reflexivity. Qed.

Theorem parse_sri_computed a d : parse_sri (sri_text (sri_of hash a d)) = Some (sri_of hash a d).
Proof.
  unfold parse_sri, words, sri_text, sri_of, hash_text. cbn [map intercalate h_algo h_digest].
  destruct (algo_name_facts a) as [Hp Hc]. pose proof (b64_encode_clean (hash a d)) as Hb.
  rewrite words_aux_clean
    by (rewrite forallb_app; cbn [forallb]; rewrite !clean_no_space by assumption; reflexivity).
  cbn [rev app]. destruct (algo_name a ++ _) eqn:E; [destruct (algo_name a); discriminate|]. rewrite <- E.
  cbn [parse_hashes]. unfold parse_hash. rewrite split_two by (apply clean_no_dash; assumption).
  rewrite Hp. reflexivity.
Qed.
End Text.

End S.
