(* RetryP.v — C13 "once the fault is gone the same call succeeds": the shape of the cache (directories where directories
   belong, files where files belong, every temp entry a regular file) is kept by every step of a keyed one-shot write and
   by every intermediate state of a step, so after a run in which ANY steps failed the tree still satisfies the
   invariant the fault-free round-trip theorem starts from: the same call, run again without faults, succeeds and its
   data reads back. *)
From CC Require Import Bytes Sri Record Fs Prog Api Crash FsP StepsP IndexP WriteP CommitP CrashIdxP FaultP
  FaultFrameP.
From Coq Require Import Lia.
Local Open Scope N_scope.

Definition okn (l : loc) (n : node) : Prop :=
  match l with
  | InCache (x :: p) =>
      if bytes_eqb x content_dir then ((List.length p <= 3)%nat -> n = Dir) /\ (List.length p = 4%nat -> n <> Dir)
      else if bytes_eqb x (bs "tmp") then
        match p with [] => n = Dir | [_] => exists d, n = File d | _ => True end
      else True
  | _ => True
  end.

Definition Shape (g : fs) : Prop := forall l n, lookup g l = Some n -> okn l n.

(* what it says in each zone; which zone a name lies in is decided by evaluation *)
Lemma okn_content p n :
  okn (InCache (content_dir :: p)) n <-> ((List.length p <= 3)%nat -> n = Dir) /\ (List.length p = 4%nat -> n <> Dir).
Proof. reflexivity. Qed.
Lemma okn_content_prefix x a b q : In q (prefixes [content_dir; x; a; b]) -> okn (InCache q) Dir.
Proof.
  change (prefixes [content_dir; x; a; b]) with [[content_dir]; [content_dir; x]; [content_dir; x; a]; [content_dir; x; a; b]].
  intros [<-|[<-|[<-|[<-|[]]]]]; apply okn_content; (split; [reflexivity|cbn [List.length]; intros X; discriminate X]).
Qed.
Lemma okn_content_file x a b c d : okn (InCache [content_dir; x; a; b; c]) (File d).
Proof. apply okn_content. split; [cbn [List.length]; lia|discriminate]. Qed.
Lemma okn_tmpdir : okn (InCache tmp_dir) Dir.
Proof. reflexivity. Qed.
Lemma okn_tmpfile x n : okn (InCache [bs "tmp"; x]) n <-> exists d, n = File d.
Proof. reflexivity. Qed.
Lemma tmpfile_okn x d : okn (InCache [bs "tmp"; x]) (File d).
Proof. apply okn_tmpfile. eauto. Qed.
Lemma okn_index p n : okn (InCache (index_dir :: p)) n.
Proof. exact I. Qed.

Lemma Shape_content g : Shape g -> ContentShape g.
Proof. intros H p n Hl. exact (proj1 (okn_content p n) (H _ _ Hl)). Qed.
Lemma Shape_tmp g : Shape g -> TmpShape g.
Proof.
  intros H. unfold TmpShape, dir_or_absent. destruct (lookup g (InCache tmp_dir)) as [n|] eqn:E; [|left; reflexivity].
  right. f_equal. exact (H _ _ E).
Qed.

(* the steps that keep the shape: whatever node they put somewhere is of the right kind for that place *)
Definition sstep (c : sys) : Prop :=
  match c with
  | MkdirAll p => forall q, In q (prefixes p) -> okn (InCache q) Dir
  | Fallocate l _ | MmapStore l _ _ | Truncate l _ | WriteAppend l _ | Append l _ | CreateIfMissing l => forall d, okn l (File d)
  | Rename s d => (exists x, s = InCache [bs "tmp"; x]) /\ forall dd, okn d (File dd)
  | Link _ _ | SymlinkTo _ _ | CopyFile _ _ => False
  | _ => True
  end.

(* on a well-shaped tree a temp entry is a regular file, so a rename moves a regular file *)
Lemma sstep_puts c g l n : Shape g -> sstep c -> may_touch c l -> may_put c g n -> okn l n.
Proof.
  intros Hg. destruct c; cbn [sstep may_touch may_put]; intros Hs Ht Hp; try contradiction; try (subst l; destruct Hp as [dd ->]; apply Hs).
  - subst n. apply in_map_iff in Ht as [q [<- Hq]]. exact (Hs q Hq).
  - destruct Ht as [x ->], Hp as [d ->]. exact (tmpfile_okn x d).
  - destruct Hs as [[x ->] Hd]. pose proof (Hg _ _ Hp) as Hn. destruct Ht as [->| ->]; [exact Hn|].
    apply okn_tmpfile in Hn as [dd ->]. apply Hd.
Qed.

Lemma nodes_step (ok : loc -> node -> Prop) c f :
  (forall l n, lookup f l = Some n -> ok l n) -> (forall l n, may_touch c l -> may_put c f n -> ok l n) ->
  (forall l n, lookup (snd (exec c f)) l = Some n -> ok l n) /\
  Forall (fun g => forall l n, lookup g l = Some n -> ok l n) (mid_states c f).
Proof.
  intros H Hput. assert (forall g, g = snd (exec c f) \/ In g (mid_states c f) -> forall l n, lookup g l = Some n -> ok l n) as Hg.
  { intros g Hin l n Hl. destruct (exec_effect c f g l Hin) as [E|(Ht & [E|(n' & E & Hp)])]; [rewrite E in Hl; exact (H l n Hl)|congruence|].
    assert (n' = n) by congruence. subst n'. exact (Hput l n Ht Hp). }
  split; [apply Hg; left; reflexivity|apply Forall_forall; intros g Hin; apply Hg; right; exact Hin].
Qed.

Lemma shape_step c g : Shape g -> sstep c -> Shape (snd (exec c g)) /\ Forall Shape (mid_states c g).
Proof. intros H Hs. exact (nodes_step okn c g H (fun l n => sstep_puts c g l n H Hs)). Qed.

Lemma shape_faulty {A} (p : prog A) f a f' : Shape f -> fsteps (fun c _ => sstep c) p f -> frun p f a f' -> Shape f'.
Proof. apply frun_invariant. intros c g Hg Hc. exact (shape_step c g Hg Hc). Qed.

Lemma open_step_sstep c : open_step c -> sstep c.
Proof.
  destruct c; cbn [open_step sstep]; try contradiction; auto.
  - intros -> q [<-|[]]. exact okn_tmpdir.
  - intros [x ->] d. apply tmpfile_okn.
Qed.

Lemma tmp_step_sstep t c : tmpfile t -> tmp_step t c -> sstep c.
Proof. intros [x ->]. destruct c; cbn [tmp_step sstep]; try contradiction; auto; intros -> dd; apply tmpfile_okn. Qed.

Section Rt.
Variable hash : algo -> bytes -> bytes.
Hypothesis HL : HashLen hash.

Lemma publish_step_sstep t a d c : tmpfile t -> publish_step t (cpath hash a d) c -> sstep c.
Proof.
  intros Ht. destruct c; cbn [publish_step sstep]; try contradiction; auto.
  - intros -> q Hq. exact (okn_content_prefix _ _ _ q Hq).
  - intros [-> ->]. split; [exact Ht|intros dd; apply okn_content_file].
Qed.

Lemma index_step_sstep key c : index_step (bucket_path hash key) c -> sstep c.
Proof.
  destruct (bucket_path_shape hash key) as (x & y & z & ->).
  destruct c; cbn [index_step sstep]; try contradiction; try (intros -> dd; apply okn_index).
  intros -> q [<-|[<-|[<-|[]]]]; apply okn_index.
Qed.

Lemma commit_step_sstep w c : tmpfile (w_tmp w) -> commit_step hash w c -> sstep c.
Proof.
  intros Ht [[H|(cp & E & H)]|(k & _ & H)]; [exact (tmp_step_sstep _ c Ht H)| |exact (index_step_sstep k c H)].
  rewrite (content_path_computed hash _ _ HL) in E. inversion E; subst cp. exact (publish_step_sstep _ _ _ c Ht H).
Qed.

Theorem oneshot_faulty_shape f fl key o data now r f' :
  Shape f -> frun (oneshot hash fl key o data now) f r f' -> Shape f'.
Proof.
  intros Hs. apply shape_faulty; [exact Hs|]. apply oneshot_fsteps; [exact open_step_sstep|].
  intros w c Ht [H|H]; [exact (tmp_step_sstep _ c Ht H)|exact (commit_step_sstep w c Ht H)].
Qed.

(* hence: the same call, issued again without faults, succeeds and its data reads back *)
Theorem write_retry_succeeds f fl a key data now r f' :
  IndexInv f -> Shape f ->
  let o' := commit_opts (write_opts fl a data) (sri_of hash a data) (lenN data) in
  wf_rec hash (smeta_of key o' now) -> PrefixFree hash (encode_smeta (smeta_of key o' now)) ->
  frun (write hash fl a key data now) f r f' ->
  CacheInv f' /\
  fst (run (write hash fl a key data now) f') = Ok (sri_of hash a data) /\
  let f'' := snd (run (write hash fl a key data now) f') in
  run (read hash key) f'' = (Ok data, f'') /\ (forall k, k <> key -> abs_idx hash f'' k = abs_idx hash f k).
Proof.
  intros Hi Hs o' Hwf Hpf Hr.
  destruct (write_faulty_others hash HL f fl a key data now r f' Hi Hwf Hpf Hr) as (Hi' & Hother & _).
  pose proof (oneshot_faulty_shape f fl (Some key) _ data now r f' Hs Hr) as Hs'.
  assert (CacheInv f') as Hinv by (split; [exact Hi'|split; [apply Shape_content|apply Shape_tmp]; exact Hs']).
  split; [exact Hinv|].
  destruct (write_roundtrip hash HL f' fl a key data now Hinv Hwf) as (R1 & _ & R3 & _ & R5 & _).
  split; [exact R1|]. split; [exact R3|]. intros k Hne. rewrite (R5 k Hne). exact (Hother k Hne).
Qed.

End Rt.
