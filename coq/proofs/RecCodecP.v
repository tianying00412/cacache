(* RecCodecP.v — the record codec: every record satisfying the boolean predicate [rec_ok] is written
   as a line without control bytes, valid UTF-8, that parses back to the same record.  This discharges
   the hypothesis [wf_rec] of IndexP.v for such records. *)
From Coq Require Import Lia.
From CC Require Import Bytes Utf8 Json Sri Record CodecP IndexP JsonP.
Local Open Scope N_scope.

(* bounds of the typed decoder: time is a u128, size a u64 (usize on 64-bit targets) *)
Definition n128 : N := 340282366920938463463374607431768211456.
Definition n64 : N := 18446744073709551616.
Example n128_pow : n128 = 2 ^ 128. Proof. reflexivity. Qed.
Example n64_pow : n64 = 2 ^ 64. Proof. reflexivity. Qed.

Definition opt_utf8 (o : option bytes) : bool := match o with Some s => valid_utf8 s | None => true end.

(* Why each conjunct is needed:
   - key / integrity valid UTF-8: they are copied (escaped) into the line, which [contrib] drops
     unless it is valid UTF-8;
   - time < 2^128, size < 2^64: [dec_uint two128] / [dec_uint two64] reject larger integers;
   - metadata [jclean]: a [JFloat] carries arbitrary raw text;  [jutf8]: its strings and keys are
     copied into the line;  depth <= 126: it sits inside the record object and the parser accepts
     [json_depth] = 127 nested containers;  [jcanon]: the decoder returns [canon] of the parsed
     metadata (serde_json's BTreeMap sorts keys and keeps the last duplicate), so only values in
     normal form come back unchanged ([jsorted_jcanon]: strictly ascending keys suffice);
   - raw metadata: any bytes. *)
Definition rec_ok (m : smeta) : bool :=
  valid_utf8 (sm_key m) && opt_utf8 (sm_integrity m) &&
  (sm_time m <? n128) && (sm_size m <? n64) &&
  jclean (sm_metadata m) && jutf8 (sm_metadata m) && Nat.leb (jdepth (sm_metadata m)) 126 &&
  jcanon (sm_metadata m).

Lemma dec_uint_of_N bound n : (Z.of_N n < bound)%Z -> dec_uint bound (JInt (Z.of_N n)) = Some n.
Proof.
  intros H. unfold dec_uint.
  assert ((0 <=? Z.of_N n)%Z = true) as -> by (apply Z.leb_le; lia).
  assert ((Z.of_N n <? bound)%Z = true) as -> by (apply Z.ltb_lt; exact H).
  cbn [andb]. rewrite N2Z.id. reflexivity.
Qed.

Definition jbyte (b : byte) : jv := JInt (Z.of_N (b2n b)).

Lemma dec_u8s_map d : dec_u8s (map jbyte d) = Some d.
Proof.
  induction d as [|b d IH]; [reflexivity|].
  cbn [map dec_u8s]. unfold jbyte at 1. rewrite dec_uint_of_N by (pose proof (b2n_bounded b); lia).
  rewrite IH, n2b_b2n. reflexivity.
Qed.

Lemma dec_raw_jraw r : dec_raw (jraw r) = Some r.
Proof.
  destruct r as [d|]; [|reflexivity]. cbn [jraw dec_raw]. fold jbyte. rewrite dec_u8s_map. reflexivity.
Qed.

Lemma dec_fields_six vk vi vt vs vm vr k i t s r :
  dec_string vk = Some k -> dec_opt_string vi = Some i -> dec_uint two128 vt = Some t ->
  dec_uint two64 vs = Some s -> dec_raw vr = Some r ->
  dec_fields [(bs "key", vk); (bs "integrity", vi); (bs "time", vt); (bs "size", vs);
              (bs "metadata", vm); (bs "raw_metadata", vr)] partial0
  = Some (mkPartial (Some k) (Some i) (Some t) (Some s) (Some (canon vm)) (Some r)).
Proof.
  intros Hk Hi Ht Hs Hr.
  cbn [dec_fields]. unfold dec_field. simpl (bytes_eqb _ _). cbv iota.
  rewrite Hk, Hi, Ht, Hs, Hr. reflexivity.
Qed.

Lemma decode_smeta_json m :
  (sm_time m <? n128) = true -> (sm_size m <? n64) = true -> jcanon (sm_metadata m) = true ->
  decode_smeta (smeta_json m) = Some m.
Proof.
  intros Ht Hs Hc. apply N.ltb_lt in Ht. apply N.ltb_lt in Hs.
  unfold smeta_json, decode_smeta.
  rewrite (dec_fields_six _ _ _ _ _ _ (sm_key m) (sm_integrity m) (sm_time m) (sm_size m) (sm_raw m)).
  - unfold finish. cbn [p_key p_int p_time p_size p_meta p_raw].
    rewrite (proj1 (jcanon_iff _) Hc). destruct m; reflexivity.
  - reflexivity.
  - destruct (sm_integrity m); reflexivity.
  - apply dec_uint_of_N. unfold two128, n128 in *. lia.
  - apply dec_uint_of_N. unfold two64, n64 in *. lia.
  - apply dec_raw_jraw.
Qed.

Lemma jraw_clean r : jclean (jraw r) = true.
Proof. destruct r as [d|]; [|reflexivity]. cbn [jraw jclean]. induction d as [|b d IH]; [reflexivity|exact IH]. Qed.

Lemma jraw_utf8 r : jutf8 (jraw r) = true.
Proof. destruct r as [d|]; [|reflexivity]. cbn [jraw jutf8]. induction d as [|b d IH]; [reflexivity|exact IH]. Qed.

Lemma jraw_depth r : (jdepth (jraw r) <= 1)%nat.
Proof.
  destruct r as [d|]; [|cbn; lia]. cbn [jraw jdepth].
  assert (fold_right (fun x acc => Nat.max (jdepth x) acc) O (map (fun b => JInt (Z.of_N (b2n b))) d) = O) as ->; [|lia].
  induction d as [|b d IH]; [reflexivity|]. cbn [map fold_right jdepth]. rewrite IH. reflexivity.
Qed.

Lemma smeta_json_clean m : jclean (sm_metadata m) = true -> jclean (smeta_json m) = true.
Proof.
  intros H. unfold smeta_json. cbn [jclean forallb snd]. rewrite H, jraw_clean.
  destruct (sm_integrity m); reflexivity.
Qed.

Lemma smeta_json_utf8 m :
  valid_utf8 (sm_key m) = true -> opt_utf8 (sm_integrity m) = true -> jutf8 (sm_metadata m) = true ->
  jutf8 (smeta_json m) = true.
Proof.
  intros Hk Hi Hm. unfold smeta_json.
  destruct (sm_integrity m) as [s|]; cbn [opt_utf8] in Hi; cbn [jutf8 forallb fst snd]; rewrite ?Hi, Hk, Hm, jraw_utf8;
    reflexivity.
Qed.

Lemma smeta_json_depth m : (jdepth (sm_metadata m) <= 126)%nat -> (jdepth (smeta_json m) <= json_depth)%nat.
Proof.
  intros H. unfold smeta_json, json_depth. cbn [jdepth fold_right snd]. pose proof (jraw_depth (sm_raw m)) as Hr.
  assert (jdepth (match sm_integrity m with Some s => JStr s | None => JNull end) = O) as -> by (destruct (sm_integrity m); reflexivity).
  lia.
Qed.

Section W.
Variable hash : algo -> bytes -> bytes.

Lemma record_line_utf8 text : valid_utf8 text = true -> valid_utf8 (record_line hash text) = true.
Proof.
  intros H. unfold record_line, hash_entry.
  change (tab :: text) with ([tab] ++ text). rewrite app_assoc, valid_utf8_ascii_app; [exact H|].
  rewrite forallb_app, (hex_encode_all is_ascii eq_refl). reflexivity.
Qed.

Theorem wf_rec_api m : rec_ok m = true -> wf_rec hash m.
Proof.
  unfold rec_ok. rewrite !andb_true_iff. intros [[[[[[[Hkey Hint] Htime] Hsize] Hclean] Hutf] Hdepth] Hcanon].
  apply Nat.leb_le in Hdepth.
  pose proof (smeta_json_clean m Hclean) as Jc.
  pose proof (smeta_json_utf8 m Hkey Hint Hutf) as Ju.
  pose proof (smeta_json_depth m Hdepth) as Jd.
  unfold wf_rec. cbv zeta. unfold encode_smeta. split; [|split].
  - intros b Hb. exact (ser_no_ctrl _ Jc b Hb).
  - apply record_line_utf8. exact (ser_utf8 _ Jc Ju).
  - unfold parse_smeta. rewrite (parse_json_ser _ Jc Jd). exact (decode_smeta_json m Htime Hsize Hcanon).
Qed.
End W.

Lemma rec_ok_intro m :
  valid_utf8 (sm_key m) = true -> opt_utf8 (sm_integrity m) = true ->
  sm_time m < n128 -> sm_size m < n64 ->
  jclean (sm_metadata m) = true -> jutf8 (sm_metadata m) = true -> (jdepth (sm_metadata m) <= 126)%nat ->
  jsorted (sm_metadata m) = true ->
  rec_ok m = true.
Proof.
  intros Hk Hi Ht Hs Hc Hu Hd Hn. unfold rec_ok.
  apply N.ltb_lt in Ht. apply N.ltb_lt in Hs. apply Nat.leb_le in Hd.
  rewrite Hk, Hi, Ht, Hs, Hc, Hu, Hd, (jsorted_jcanon _ Hn). reflexivity.
Qed.

(* the predicate is satisfiable: a record with a non-ASCII key, nested metadata, raw bytes *)
Definition ex_rec : smeta :=
  mkSmeta [x6b; xc3; xa9; x79; xe2; x82; xac]                    (* "k\u00e9y\u20ac" *)
          (Some (bs "sha256-47DEQpj8HBSa+/TImW+5JCeuQeRkm5NMpJWZG3hSuFU="))
          1700000000123 42
          (JObj [(bs "a", JArr [JInt 1; JInt (-20); JNull; JStr [x22; x5c; x0a; x01; xf0; x9f; x98; x80]]);
                 (bs "b", JObj [(bs "x", JBool true); (bs "y", JObj []); (bs "z", JArr [])]);
                 ([xc3; xa9], JInt 0)])
          (Some [x00; xff; x0a; x22; x30]).

Example ex_rec_ok : rec_ok ex_rec = true.
Proof. vm_compute. reflexivity. Qed.

Example ex_rec_roundtrip : parse_smeta (encode_smeta ex_rec) = Some ex_rec.
Proof. vm_compute. reflexivity. Qed.

(* the normal-form condition is not vacuous: unsorted keys are rejected (the decoder would sort them) *)
Example ex_rec_unsorted :
  rec_ok (mkSmeta (bs "k") None 0 0 (JObj [(bs "b", JNull); (bs "a", JNull)]) None) = false.
Proof. vm_compute. reflexivity. Qed.

Print Assumptions wf_rec_api.
Print Assumptions decode_smeta_json.
