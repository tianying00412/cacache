(* CrashP.v — invariants at every crash state (C03): whatever the kill point and the torn length of the write in
   flight, every file under content-v2 carries the digest of its address. *)
From CC Require Import Bytes Sri Fs Prog Api Crash FsP ProgP StepsP WriteP CommitP.
From Coq Require Import Lia.
Local Open Scope N_scope.

Section Cr.
Variable hash : algo -> bytes -> bytes.
Hypothesis HL : HashLen hash.

Definition ContentInv (f : fs) : Prop :=
  forall p d, lookup f (InCache (content_dir :: p)) = Some (File d) -> exists a, content_dir :: p = cpath hash a d.

Definition cwrites (c : sys) : list loc :=
  match c with
  | Fallocate l _ | MmapStore l _ _ | Truncate l _ | WriteAppend l _ | CreateIfMissing l | Append l _ => [l]
  | Link _ dst | CopyFile _ dst => [dst]
  | _ => []
  end.

Definition csafe (c : sys) (f : fs) : Prop :=
  match c with
  | Rename src dst => is_content dst -> forall d, lookup f src = Some (File d) -> exists a, dst = InCache (cpath hash a d)
  | _ => forall l, In l (cwrites c) -> ~ is_content l
  end.
Definition csafe' (c : sys) : Prop :=
  match c with Rename _ dst => ~ is_content dst | _ => forall l, In l (cwrites c) -> ~ is_content l end.
Lemma csafe'_csafe c f : csafe' c -> csafe c f.
Proof. destruct c; cbn; auto. intros H Hc. contradiction. Qed.

Lemma touches_csafe' c : touches (fun l => ~ is_content l) c -> csafe' c.
Proof. destruct c; cbn; intros H; try (intros lx [<-|[]]); try (intros lx []); apply H; cbn; auto. Qed.

(* a safe step keeps the invariant, in its final and in every intermediate state: a file it puts under content-v2 was
   there before, or comes by a rename from a file with the digest of the destination *)
Lemma step_content c f : ContentInv f -> csafe c f -> ContentInv (snd (exec c f)) /\ Forall ContentInv (mid_states c f).
Proof.
  intros H Hs.
  assert (forall g, g = snd (exec c f) \/ In g (mid_states c f) -> ContentInv g) as Hg.
  { intros g Hin p d Hl.
    destruct (exec_effect c f g (InCache (content_dir :: p)) Hin) as [E|(Ht & [E|(n & E & Hp)])]; try congruence;
      [rewrite E in Hl; exact (H p d Hl)|].
    assert (n = File d) by congruence. subst n. clear E Hl Hin g.
    assert (is_content (InCache (content_dir :: p))) as Hc by (eexists; reflexivity).
    destruct c; cbn [may_touch may_put csafe cwrites] in Ht, Hp, Hs;
      try discriminate; try contradiction; try (subst; exfalso; apply (Hs _ (or_introl eq_refl)); exact Hc).
    - destruct Ht as [n E]. rewrite E in Hc. exfalso. exact (tmp_loc_not_content n Hc).
    - destruct Ht as [E|E]; subst; [exact (H p d Hp)|]. destruct (Hs Hc d Hp) as [a Ha]. exists a. congruence. }
  split; [apply Hg; left; reflexivity|apply Forall_forall; intros g Hin; apply Hg; right; exact Hin].
Qed.

Theorem content_inv_crash {A} (p : prog A) f :
  ContentInv f -> steps_ok csafe p f -> Forall ContentInv (crash_states p f) /\ ContentInv (snd (run p f)).
Proof. apply crash_invariant. exact step_content. Qed.

Lemma read_step_csafe' c : read_step c -> csafe' c.
Proof. intros H. apply touches_csafe'. exact (read_step_touches _ c H). Qed.

Lemma remove_step_csafe' c : remove_step c -> csafe' c.
Proof. destruct c; cbn; try contradiction; intros _ ? []. Qed.

Lemma extract_step_csafe' dst c : ~ is_content dst -> extract_step dst c -> csafe' c.
Proof. intros Hd H. apply touches_csafe'. intros l Hl. rewrite <- (extract_step_touches _ c H l Hl). exact Hd. Qed.

Lemma open_step_csafe' c : open_step c -> csafe' c.
Proof.
  intros H. apply touches_csafe'. intros l Hl Hc. exact (content_not_tmp l Hc (open_step_touches c H l Hl)).
Qed.

Lemma tmp_step_csafe' t c : ~ is_content t -> tmp_step t c -> csafe' c.
Proof. intros Ht H. apply touches_csafe'. intros l Hl. rewrite <- (tmp_step_touches _ c H l Hl). exact Ht. Qed.

Lemma index_step_csafe' key c : index_step (bucket_path hash key) c -> csafe' c.
Proof. intros H. apply touches_csafe'. intros l Hl. exact (index_not_content l (index_step_index hash key c H l Hl)). Qed.

(* the only step of a write that puts a file under content-v2 is the rename of the temp file, and then the temp file
   holds exactly the bytes that were hashed: incomplete data lives only in tmp/ *)
Lemma write_step_csafe a data key c f : write_step hash a data key c f -> csafe c f.
Proof.
  intros [[H|[(t & Ht & [H|H])|(k & _ & H)]] Hr]; try (apply csafe'_csafe; eauto using open_step_csafe', tmp_step_csafe', index_step_csafe', tmpfile_not_content; fail).
  destruct c; cbn in H |- *; try contradiction. destruct H as [-> ->]. intros _ d Hd.
  cbn in Hr. exists a. congruence.
Qed.

Lemma commit_step_csafe w c f :
  tmpfile (w_tmp w) -> commit_step hash w c -> rename_ok (w_data w) c f -> csafe c f.
Proof. intros Ht H Hr. exact (write_step_csafe _ _ _ c f (commit_step_write_step hash HL tmpfile w c f Ht H Hr)). Qed.

Lemma close_writer_csafe f w : WInv f w -> steps_ok csafe (close_writer hash w) f.
Proof.
  intros Hw. apply (steps_ok_impl (fun c g => close_step hash w c /\ rename_ok (w_data w) c g)).
  - intros c g [H Hr]. exact (commit_step_csafe w c g (proj1 Hw) (or_introl H) Hr).
  - apply steps_ok_and; [apply (all_steps_ok (close_step hash w)); [auto|apply close_writer_steps]|apply close_writer_rename; exact Hw].
Qed.

(* C03 for every streamed write (any chunking, keyed or by address, any options) and every one-shot write, from any tree *)
Theorem stream_write_crash f fl key o cs now :
  ContentInv f ->
  Forall ContentInv (crash_states (stream_write hash fl key o cs now) f) /\ ContentInv (snd (run (stream_write hash fl key o cs now) f)).
Proof.
  intros Hc. apply content_inv_crash; [exact Hc|].
  exact (steps_ok_impl _ _ _ _ (write_step_csafe _ _ _) (stream_write_steps hash HL f fl key o cs now)).
Qed.

Theorem oneshot_crash f fl key o data now :
  ContentInv f ->
  Forall ContentInv (crash_states (oneshot hash fl key o data now) f) /\ ContentInv (snd (run (oneshot hash fl key o data now) f)).
Proof.
  intros Hc. apply content_inv_crash; [exact Hc|].
  exact (steps_ok_impl _ _ _ _ (write_step_csafe _ _ _) (oneshot_steps hash HL f fl key o data now)).
Qed.

(* every other API program: none of its steps writes a file under content-v2, on ANY tree *)
Theorem other_ops_crash {A} (p : prog A) f :
  all_steps csafe' p -> ContentInv f -> Forall ContentInv (crash_states p f) /\ ContentInv (snd (run p f)).
Proof. intros Hp Hc. apply content_inv_crash; [exact Hc|]. apply (all_steps_ok csafe'); [apply csafe'_csafe|exact Hp]. Qed.

End Cr.
