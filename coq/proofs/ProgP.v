(* ProgP.v — equations for the sequential interpreter, and how the step predicates of a program ([all_steps] for every
   answer, [steps_ok] along the run, [crash_states]) go through [bind]. *)
From CC Require Import Bytes Fs Prog Crash.

Lemma run_bind {A B} (p : prog A) (g : A -> prog B) f :
  run (bind p g) f = let '(a, f1) := run p f in run (g a) f1.
Proof.
  revert f. induction p as [a|c k IH]; intros f; simpl; [reflexivity|].
  destruct (exec c f) as [r f1]. apply IH.
Qed.

Lemma run_rbind_ok {A B} (p : prog (res A)) (g : A -> prog (res B)) f a f1 :
  run p f = (Ok a, f1) -> run (rbind p g) f = run (g a) f1.
Proof. intros H. unfold rbind. rewrite run_bind, H. reflexivity. Qed.

Lemma run_rbind_err {A B} (p : prog (res A)) (g : A -> prog (res B)) f e f1 :
  run p f = (Err e, f1) -> run (rbind p g) f = (Err e, f1).
Proof. intros H. unfold rbind. rewrite run_bind, H. reflexivity. Qed.

Lemma run_rbind_inv {A B} (p : prog (res A)) (g : A -> prog (res B)) f b f2 :
  run (rbind p g) f = (Ok b, f2) -> exists a f1, run p f = (Ok a, f1) /\ run (g a) f1 = (Ok b, f2).
Proof.
  unfold rbind. rewrite run_bind. destruct (run p f) as [[a|e| | |] f1]; cbn [run]; try discriminate. eauto.
Qed.

Lemma run_step_ok_snd c f : snd (run (step_ok c) f) = snd (exec c f).
Proof. unfold step_ok. cbn [run]. destruct (exec c f) as [r f1]. destruct r; reflexivity. Qed.

Definition not_err (r : ret) : Prop := match r with RErr _ => False | _ => True end.

Lemma run_step_ok c f r f1 : exec c f = (r, f1) -> not_err r -> run (step_ok c) f = (Ok tt, f1).
Proof. intros H Hr. unfold step_ok. simpl. rewrite H. destruct r; simpl in *; try reflexivity. contradiction. Qed.

Lemma run_step_err c f e f1 : exec c f = (RErr e, f1) -> run (step_ok c) f = (Err EIoErr, f1).
Proof. intros H. unfold step_ok. simpl. rewrite H. reflexivity. Qed.

Lemma crash_states_bind {A B} (P : fs -> Prop) (p : prog A) (g : A -> prog B) f :
  Forall P (crash_states (bind p g) f) <->
  Forall P (crash_states p f) /\ Forall P (crash_states (g (fst (run p f))) (snd (run p f))).
Proof.
  revert f. induction p as [a|c k IH]; intros f; cbn [bind crash_states run fst snd].
  - split; [intros H; split; [constructor; [|constructor]|exact H]|intros [_ H]; exact H].
    destruct (g a); cbn [crash_states] in H; inversion H; assumption.
  - destruct (exec c f) as [r f1]. rewrite !Forall_cons_iff, !Forall_app, IH. tauto.
Qed.

Lemma steps_ok_bind {A B} (S : sys -> fs -> Prop) (p : prog A) (g : A -> prog B) f :
  steps_ok S (bind p g) f <-> steps_ok S p f /\ steps_ok S (g (fst (run p f))) (snd (run p f)).
Proof.
  revert f. induction p as [a|c k IH]; intros f; cbn [bind steps_ok run fst snd]; [tauto|].
  destruct (exec c f) as [r f1]. rewrite IH. tauto.
Qed.

Lemma all_steps_ok {A} (S' : sys -> Prop) (S : sys -> fs -> Prop) (p : prog A) :
  (forall c f, S' c -> S c f) -> all_steps S' p -> forall f, steps_ok S p f.
Proof.
  intros HS. induction p as [a|c k IH]; intros H f; cbn [steps_ok all_steps] in *; [exact I|].
  destruct H as [Hc Hk]. split; [apply HS; exact Hc|]. destruct (exec c f) as [r f1]. apply IH. apply Hk.
Qed.

Lemma all_steps_bind {A B} (S' : sys -> Prop) (p : prog A) (g : A -> prog B) :
  all_steps S' p -> (forall a, all_steps S' (g a)) -> all_steps S' (bind p g).
Proof. induction p as [a|c k IH]; cbn [bind all_steps]; [auto|]. intros [Hc Hk] Hg. split; [exact Hc|]. intros r. apply IH; auto. Qed.

Lemma all_steps_rbind {A B} (S' : sys -> Prop) (p : prog (res A)) (g : A -> prog (res B)) :
  all_steps S' p -> (forall a, all_steps S' (g a)) -> all_steps S' (rbind p g).
Proof. intros Hp Hg. unfold rbind. apply all_steps_bind; [exact Hp|]. intros [a|e| | |]; cbn; auto. Qed.

Lemma all_steps_step_ok (S' : sys -> Prop) c : S' c -> all_steps S' (step_ok c).
Proof. intros H. unfold step_ok. cbn. split; [exact H|]. intros [| | | | | |]; exact I. Qed.

Theorem crash_invariant {A} (P : fs -> Prop) (S : sys -> fs -> Prop) :
  (forall c f, P f -> S c f -> P (snd (exec c f)) /\ Forall P (mid_states c f)) ->
  forall (p : prog A) f, P f -> steps_ok S p f -> Forall P (crash_states p f) /\ P (snd (run p f)).
Proof.
  intros Hstep. induction p as [a|c k IH]; intros f HP Hs; cbn [crash_states steps_ok run snd] in *.
  - split; [constructor; [exact HP|constructor]|exact HP].
  - destruct Hs as [Hc Hk]. destruct (Hstep c f HP Hc) as [H1 H2]. destruct (exec c f) as [r f1]. cbn [snd] in H1.
    destruct (IH r f1 H1 Hk) as [H3 H4]. split; [|exact H4].
    constructor; [exact HP|]. apply Forall_app. split; assumption.
Qed.

Lemma run_invariant {A} (P : fs -> Prop) (S : sys -> fs -> Prop) :
  (forall c f, P f -> S c f -> P (snd (exec c f))) ->
  forall (p : prog A) f, P f -> steps_ok S p f -> P (snd (run p f)).
Proof.
  intros Hstep. induction p as [a|c k IH]; intros f HP Hs; cbn [steps_ok run snd] in *; [exact HP|].
  destruct Hs as [Hc Hk]. pose proof (Hstep c f HP Hc) as H1. destruct (exec c f) as [r f1]. exact (IH r f1 H1 Hk).
Qed.

Lemma all_steps_impl {A} (P Q : sys -> Prop) (p : prog A) : (forall c, P c -> Q c) -> all_steps P p -> all_steps Q p.
Proof. intros HPQ. induction p as [a|c k IH]; cbn [all_steps]; [auto|]. intros [H1 H2]. split; [auto|intros r; apply IH; auto]. Qed.

Lemma steps_ok_impl {A} (S S' : sys -> fs -> Prop) (p : prog A) f :
  (forall c g, S c g -> S' c g) -> steps_ok S p f -> steps_ok S' p f.
Proof.
  intros H. revert f. induction p as [a|c k IH]; intros f; cbn [steps_ok]; [auto|].
  intros [H1 H2]. split; [auto|]. destruct (exec c f). auto.
Qed.

Lemma steps_ok_and {A} (S S' : sys -> fs -> Prop) (p : prog A) f :
  steps_ok S p f -> steps_ok S' p f -> steps_ok (fun c g => S c g /\ S' c g) p f.
Proof.
  revert f. induction p as [a|c k IH]; intros f; cbn [steps_ok]; [auto|].
  intros [H1 H2] [H3 H4]. split; [auto|]. destruct (exec c f). auto.
Qed.
